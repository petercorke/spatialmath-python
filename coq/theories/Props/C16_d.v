(* C16 (d) -- "accepts the same call forms as the numeric path".
   [callforms] is the table observed on this run: every documented call form of every entry tagged ':SymPy: supported'
   (and of the pose-class operators over them), with what happened when it was called with symbolic arguments
   (Ok / SymRaises: only the symbolic path raises / BothRaise: the numeric path raises too / NumRaises).

   The statement (C16_callforms_all_ok):
       forall e f st, In (e, f, st) callforms -> st = Ok.
   The domain is the finite table regenerated on every run; vm_compute is a proof here. *)
From Coq Require Import String List Bool.
From SMgen Require Import Traces_C16.
Import ListNotations.
Open Scope string_scope.

Definition is_ok (s : form_status) : bool := match s with Ok => true | _ => false end.
Definition pair_eqb (a b : string * string) : bool := (String.eqb (fst a) (fst b) && String.eqb (snd a) (snd b))%bool.
Definition mem (x : string * string) (l : list (string * string)) : bool := existsb (pair_eqb x) l.

(* no call form is expected to fail: one that starts failing (on either path) breaks the theorem below *)
Definition expected_failing : list (string * string) := [].

(* a test of the status that holds along the whole table (decided by evaluation) holds of every row *)
Lemma callforms_all (P : form_status -> bool) :
  forallb (fun r => P (snd r)) callforms = true -> forall e f st, In (e, f, st) callforms -> P st = true.
Proof. intros H e f st Hin. rewrite forallb_forall in H. exact (H _ Hin). Qed.

Theorem C16_callforms_all_ok : forall e f st, In (e, f, st) callforms -> st = Ok.
Proof.
  intros e f st Hin. apply (callforms_all is_ok) in Hin; [|vm_compute; reflexivity].
  destruct st; try discriminate; reflexivity.
Qed.
Print Assumptions C16_callforms_all_ok.

(* non-vacuity: the table is large and contains the forms named below *)
Example C16_callforms_nonvacuous :
  Nat.leb 250 (length callforms) = true /\
  existsb (fun r => match r with (e, f, Ok) => pair_eqb (e, f) ("base.rotx", "theta") | _ => false end) callforms = true /\
  existsb (fun r => match r with (e, f, Ok) => pair_eqb (e, f) ("op.SE3*SE3", "X*Y") | _ => false end) callforms = true /\
  (* the table really contains these forms, each of which failed on the symbolic path before a repair in /repo
     (so C16_callforms_all_ok is about them) *)
  forallb (fun p => existsb (fun r => match r with (e, f, Ok) => pair_eqb (e, f) p | _ => false end) callforms)
    [("SE3.jacob", "X.jacob()"); ("base.rotx","theta,'deg'"); ("base.trotz","theta,'deg'"); ("SE3.Ry","theta,'deg'");
     ("base.eul2r","phi,theta,psi (3 scalars)"); ("base.eul2tr","phi,0.2,0.3 (scalars)"); ("base.trotx","0.3,t=[x,y,z]");
     ("Twist3.Rx","theta (scalar)"); ("op.SE2.inv","X.inv()"); ("op.SE2/SE2","X / Y"); ("op.SO2.inv","A.inv()");
     ("op.SO2/SO2","A / B"); ("SE3.Delta","d (array)"); ("SE3.Delta","[x,0.2,0.3,a,0.1,c]"); ("op.SE3**n","X ** -1");
     ("op.SE3**n","X ** -2"); ("op.SO2**n","A ** -1"); ("op.SE3 scalar","X*s (mul)"); ("op.SO2 scalar","s-X (rsub)")] = true.
Proof. repeat split; vm_compute; reflexivity. Qed.

(* the numeric path never rejects a form that the symbolic path accepts *)
Theorem C16_no_numeric_only_failure : forall e f, ~ In (e, f, NumRaises) callforms.
Proof.
  intros e f Hin.
  apply (callforms_all (fun st => match st with NumRaises => false | _ => true end)) in Hin; [discriminate | vm_compute; reflexivity].
Qed.
Print Assumptions C16_no_numeric_only_failure.

(* no call form is rejected by both paths *)
Theorem C16_no_both_paths_failure : forall e f, ~ In (e, f, BothRaise) callforms.
Proof.
  intros e f Hin.
  apply (callforms_all (fun st => match st with BothRaise => false | _ => true end)) in Hin; [discriminate | vm_compute; reflexivity].
Qed.
Print Assumptions C16_no_both_paths_failure.
