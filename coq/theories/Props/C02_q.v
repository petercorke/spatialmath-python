(* C02 (part q) -- group laws of UnitQuaternion (class-level `*`, `/`, `.inv()`, `**`, default constructor).
   Every class-level result is re-normalised by the UnitQuaternion constructor (base.unit: q / |q|), so the traces
   contain 1/sqrt(...) factors; under the unit-norm hypotheses every such square root is sqrt 1.
   The laws hold exactly (not only up to sign) in exact arithmetic. *)
From Coq Require Import Reals ZArith Lra Nsatz.
From SM Require Import Base.Ops Base.Lin Base.RInst Base.RLin Model.Quat Model.C02_Pow.
From SMgen Require Import Traces_C02.
Open Scope R_scope.

Definition unitq (q : V4 R) : Prop := qnormsq Rops q = 1.


(* replace by 1 every argument of a square root or an inverse that is 1 under the unit-norm hypotheses, innermost
   first: an argument is tried only once it contains no further root or inverse *)
Ltac solve_one := first [ lra | nsatz ].
Ltac ones := rewrite ?sqrt_1, ?Rinv_1.
Ltac innermost e := lazymatch e with 1 => fail | context [sqrt _] => fail | context [/ _] => fail | _ => idtac end.
Ltac kill_norms :=
  unfold Rdiv in *;
  repeat (ones;
          match goal with
          | |- context [/ ?e] => innermost e; replace e with 1 by solve_one
          | |- context [sqrt ?e] => innermost e; replace e with 1 by solve_one
          end);
  ones.

Theorem C02_UQ_mul_unit : forall p q : V4 R, unitq p -> unitq q -> tr_UQ_mul Rops p q = qmul Rops p q.
Proof.
  unfold unitq. intros p q Hp Hq. destruct_tuples. c02_unfold. kill_norms. tuple_eq ltac:(ring).
Qed.
Print Assumptions C02_UQ_mul_unit.

Theorem C02_UQ_inv_unit : forall q : V4 R, unitq q -> tr_UQ_inv Rops q = qconj Rops q.
Proof.
  unfold unitq. intros q Hq. destruct_tuples. c02_unfold. kill_norms. tuple_eq ltac:(ring).
Qed.
Print Assumptions C02_UQ_inv_unit.

Theorem C02_UQ_div_unit : forall p q : V4 R, unitq p -> unitq q ->
  tr_UQ_div Rops p q = qmul Rops p (qconj Rops q).
Proof.
  unfold unitq. intros p q Hp Hq. destruct_tuples. c02_unfold. kill_norms. tuple_eq ltac:(ring).
Qed.
Print Assumptions C02_UQ_div_unit.

(* the default-constructed UnitQuaternion is a two-sided identity *)
Theorem C02_UQ_identity : forall q : V4 R, unitq q -> tr_UQ_id_r Rops q = q /\ tr_UQ_id_l Rops q = q.
Proof.
  unfold unitq. intros q Hq. destruct_tuples. c02_unfold. split; kill_norms; tuple_eq ltac:(ring).
Qed.
Print Assumptions C02_UQ_identity.

(* closure, so that the single-operator theorems can be iterated, is qmul_unit, qconj_unit, qone_unit of Base/RLin.v,
   stated on |q|^2 = 1: auto opens unitq to reach them *)
Local Hint Unfold unitq : core.
Lemma qmul_one_r : forall q : V4 R, qmul Rops q (qone Rops) = q.
Proof. exact RLin.qmul_one_r. Qed.

Theorem C02_UQ_closed : forall p q : V4 R, unitq p -> unitq q ->
  unitq (tr_UQ_mul Rops p q) /\ unitq (tr_UQ_inv Rops q) /\ unitq (tr_UQ_div Rops p q).
Proof.
  intros p q Hp Hq. rewrite C02_UQ_mul_unit, C02_UQ_inv_unit, C02_UQ_div_unit by assumption.
  repeat split; auto using qmul_unit, qconj_unit.
Qed.
Print Assumptions C02_UQ_closed.

Theorem C02_UQ_assoc : forall p q r : V4 R, unitq p -> unitq q -> unitq r ->
  tr_UQ_mul Rops (tr_UQ_mul Rops p q) r = tr_UQ_mul Rops p (tr_UQ_mul Rops q r).
Proof.
  intros p q r Hp Hq Hr.
  rewrite (C02_UQ_mul_unit p q), (C02_UQ_mul_unit q r) by assumption.
  rewrite !C02_UQ_mul_unit by auto using qmul_unit. apply qmul_assoc.
Qed.
Print Assumptions C02_UQ_assoc.

Theorem C02_UQ_inverse : forall q : V4 R, unitq q ->
  tr_UQ_mul Rops q (tr_UQ_inv Rops q) = qone Rops /\ tr_UQ_mul Rops (tr_UQ_inv Rops q) q = qone Rops.
Proof.
  intros q H. rewrite C02_UQ_inv_unit by assumption. rewrite !C02_UQ_mul_unit by auto using qconj_unit.
  split; [apply qmul_conj_unit_r | apply qmul_conj_unit_l]; assumption.
Qed.
Print Assumptions C02_UQ_inverse.

Theorem C02_UQ_inv_antihom : forall p q : V4 R, unitq p -> unitq q ->
  tr_UQ_inv Rops (tr_UQ_mul Rops p q) = tr_UQ_mul Rops (tr_UQ_inv Rops q) (tr_UQ_inv Rops p).
Proof.
  intros p q Hp Hq. rewrite (C02_UQ_mul_unit p q), (C02_UQ_inv_unit p), (C02_UQ_inv_unit q) by assumption.
  rewrite C02_UQ_inv_unit by auto using qmul_unit. rewrite C02_UQ_mul_unit by auto using qconj_unit.
  apply qconj_mul.
Qed.
Print Assumptions C02_UQ_inv_antihom.

Theorem C02_UQ_div : forall p q : V4 R, unitq p -> unitq q ->
  tr_UQ_div Rops p q = tr_UQ_mul Rops p (tr_UQ_inv Rops q).
Proof.
  intros p q Hp Hq. rewrite C02_UQ_div_unit, C02_UQ_inv_unit by assumption.
  rewrite C02_UQ_mul_unit by auto using qconj_unit. reflexivity.
Qed.
Print Assumptions C02_UQ_div.

(* integer powers: the traced class operator for |n| <= 3 is the loop model of base.qpow ... *)
Theorem C02_UQ_pow_traces : forall q : V4 R, unitq q ->
  tr_UQ_pow_p0 Rops q = qpow_model Rops q 0 /\ tr_UQ_pow_p1 Rops q = qpow_model Rops q 1 /\
  tr_UQ_pow_p2 Rops q = qpow_model Rops q 2 /\ tr_UQ_pow_p3 Rops q = qpow_model Rops q 3 /\
  tr_UQ_pow_m1 Rops q = qpow_model Rops q (-1) /\ tr_UQ_pow_m2 Rops q = qpow_model Rops q (-2) /\
  tr_UQ_pow_m3 Rops q = qpow_model Rops q (-3).
Proof.
  unfold unitq. intros q Hq. destruct_tuples.
  cbv beta iota delta [qpow_model Z.ltb Z.compare Z.abs_nat Pos.to_nat Pos.iter_op Nat.add qpow_nat].
  c02_unfold. repeat split; kill_norms; tuple_eq ltac:(ring).
Qed.
Print Assumptions C02_UQ_pow_traces.

(* ... and the loop model is the integer power in the group of unit quaternions (qpow_model_is_mpow), so it obeys the
   power laws for EVERY integer exponent *)
Theorem C02_UQ_pow_laws : forall (q : V4 R) (n : Z), unitq q -> (0 <= n)%Z ->
  qpow_model Rops q 0 = qone Rops /\
  qpow_model Rops q (n + 1) = qmul Rops (qpow_model Rops q n) q /\
  unitq (qpow_model Rops q n) /\ unitq (qpow_model Rops q (- n)) /\
  qmul Rops (qpow_model Rops q n) (qpow_model Rops q (- n)) = qone Rops /\
  qmul Rops (qpow_model Rops q (- n)) (qpow_model Rops q n) = qone Rops.
Proof.
  intros q n H Hn.
  split; [reflexivity|]. split; [ rewrite !qpow_model_is_mpow; apply mpow_succ; exact Hn |].
  split; [apply qpow_model_unit; exact H|]. split; [apply qpow_model_unit; exact H|].
  rewrite !qpow_model_is_mpow.
  apply (mpow_opp_inverse _ _ _ qmul_assoc qmul_one_l RLin.qmul_one_r); [apply qmul_conj_unit_r | apply qmul_conj_unit_l]; exact H.
Qed.
Print Assumptions C02_UQ_pow_laws.

(* the hand model of UnitQuaternion.__pow__ used for the numeric correspondence at |n| <= 8
   (normalise, loop, normalise: Model/C02_Pow.v) is the loop model on unit quaternions, for EVERY integer n *)
Theorem C02_UQ_pow_model : forall (q : V4 R) (n : Z), unitq q -> UQ_pow Rops q n = qpow_model Rops q n.
Proof.
  intros q n H. unfold UQ_pow. rewrite (qunit_unit q H). apply qunit_unit. apply qpow_model_unit. exact H.
Qed.
Print Assumptions C02_UQ_pow_model.

Theorem C02_UQ_pw_is_model : forall q : V4 R,
  pw_UQ_m8 Rops q = UQ_pow Rops q (-8) /\
  pw_UQ_m7 Rops q = UQ_pow Rops q (-7) /\
  pw_UQ_m6 Rops q = UQ_pow Rops q (-6) /\
  pw_UQ_m5 Rops q = UQ_pow Rops q (-5) /\
  pw_UQ_m4 Rops q = UQ_pow Rops q (-4) /\
  pw_UQ_m3 Rops q = UQ_pow Rops q (-3) /\
  pw_UQ_m2 Rops q = UQ_pow Rops q (-2) /\
  pw_UQ_m1 Rops q = UQ_pow Rops q (-1) /\
  pw_UQ_p0 Rops q = UQ_pow Rops q (0) /\
  pw_UQ_p1 Rops q = UQ_pow Rops q (1) /\
  pw_UQ_p2 Rops q = UQ_pow Rops q (2) /\
  pw_UQ_p3 Rops q = UQ_pow Rops q (3) /\
  pw_UQ_p4 Rops q = UQ_pow Rops q (4) /\
  pw_UQ_p5 Rops q = UQ_pow Rops q (5) /\
  pw_UQ_p6 Rops q = UQ_pow Rops q (6) /\
  pw_UQ_p7 Rops q = UQ_pow Rops q (7) /\
  pw_UQ_p8 Rops q = UQ_pow Rops q (8).
Proof. intros; repeat split; reflexivity. Qed.
Print Assumptions C02_UQ_pw_is_model.

Example C02_q_nonvacuous : unitq (1/3, 2/3, 2/3, 0) /\ qmul Rops (1/3, 2/3, 2/3, 0) (1/3, 2/3, 2/3, 0) <> qone Rops.
Proof.
  unfold unitq. lin_simpl. split; [lra|]. intro H. injection H. intros. lra.
Qed.
