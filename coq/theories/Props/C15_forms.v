(* C15 -- container forms of the functions that did NOT share the argument conversion on the original tree
   and gained it in the fix rounds: norm / normsq (27fbc71), cross (961176d), vvmul (bc3ebca), SE2.Exp (8585593).
   Every container form is executed on SymPy symbols on every run (props/C15.py build()); the statements are fixed:
   all five forms give the same function, and that function is the reference one of Base/Lin.v. *)
From Coq Require Import Reals ZArith Lra.
From SM Require Import Base.Ops Base.Lin Base.RInst Base.RLin.
From SMgen Require Import Traces_C15.
Open Scope R_scope.

Theorem C15_norm_forms : forall v : V3 R,
  tr_norm_list Rops v = tr_norm_nd Rops v /\ tr_norm_tuple Rops v = tr_norm_nd Rops v /\
  tr_norm_row Rops v = tr_norm_nd Rops v /\ tr_norm_col Rops v = tr_norm_nd Rops v /\
  tr_norm_nd Rops v = norm3 Rops v.
Proof. intros; repeat split; destruct_tuples; gen_unfold; f_equal; ring. Qed.
Print Assumptions C15_norm_forms.

Theorem C15_normsq_forms : forall v : V3 R,
  tr_normsq_list Rops v = tr_normsq_nd Rops v /\ tr_normsq_tuple Rops v = tr_normsq_nd Rops v /\
  tr_normsq_row Rops v = tr_normsq_nd Rops v /\ tr_normsq_col Rops v = tr_normsq_nd Rops v /\
  tr_normsq_nd Rops v = normsq3 Rops v.
Proof. repeat split; gen_ring. Qed.
Print Assumptions C15_normsq_forms.

Theorem C15_cross_forms : forall u v : V3 R,
  tr_cross_u_list Rops u v = cross3 Rops u v /\ tr_cross_u_tuple Rops u v = cross3 Rops u v /\
  tr_cross_u_nd Rops u v = cross3 Rops u v /\ tr_cross_u_row Rops u v = cross3 Rops u v /\
  tr_cross_u_col Rops u v = cross3 Rops u v /\
  tr_cross_v_list Rops u v = cross3 Rops u v /\ tr_cross_v_tuple Rops u v = cross3 Rops u v /\
  tr_cross_v_nd Rops u v = cross3 Rops u v /\ tr_cross_v_row Rops u v = cross3 Rops u v /\
  tr_cross_v_col Rops u v = cross3 Rops u v.
Proof. repeat split; gen_ring. Qed.
Print Assumptions C15_cross_forms.

Theorem C15_vvmul_forms : forall u v : V3 R,
  tr_vvmul_a_list Rops u v = tr_vvmul_a_nd Rops u v /\ tr_vvmul_a_tuple Rops u v = tr_vvmul_a_nd Rops u v /\
  tr_vvmul_a_row Rops u v = tr_vvmul_a_nd Rops u v /\ tr_vvmul_a_col Rops u v = tr_vvmul_a_nd Rops u v /\
  tr_vvmul_b_list Rops u v = tr_vvmul_a_nd Rops u v /\ tr_vvmul_b_tuple Rops u v = tr_vvmul_a_nd Rops u v /\
  tr_vvmul_b_nd Rops u v = tr_vvmul_a_nd Rops u v /\ tr_vvmul_b_row Rops u v = tr_vvmul_a_nd Rops u v /\
  tr_vvmul_b_col Rops u v = tr_vvmul_a_nd Rops u v.
Proof. repeat split; gen_ring. Qed.
Print Assumptions C15_vvmul_forms.

(* SE2.Exp: a list or tuple of three numbers is the same twist as the 1-D array (rotational path) *)
Theorem C15_SE2_Exp_forms : forall w : V3 R,
  tr_SE2_Exp_list Rops w = tr_SE2_Exp_nd Rops w /\ tr_SE2_Exp_tuple Rops w = tr_SE2_Exp_nd Rops w.
Proof. split; gen_ring. Qed.
Print Assumptions C15_SE2_Exp_forms.
(* the traced exponential is not the identity: the pure rotation by w2 > 0 has cos w2 in its corner *)
Example C15_SE2_Exp_nonvacuous : fst (fst (fst (fst (tr_SE2_Exp_nd Rops (0, 0, PI))))) = -1.
Proof. autounfold with smgen; sm_simpl. cbn [fst]. rewrite Rabs_right by (generalize PI_RGT_0; lra). apply cos_PI. Qed.
