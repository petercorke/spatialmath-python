(* C12 -- Quaternion.exp of a pure quaternion IS the exponential power series in the Hamilton algebra (L-real).
   For a unit vector u and every theta, with q = (0, u) and q^k the k-fold Hamilton product (qpow_nat, the model of base.qpow):
        Sum_k theta^k/k! (q^k)_c = (cos theta, sin theta u)_c      for each component c       (C12_pure_exp_is_series)
   and for theta > 0 that closed form is what the hand model of Quaternion.exp returns on (0, theta u), as a UnitQuaternion,
   with the thresholds regenerated from the source on this run                                   (C12_qexp_pure).
   Lemma library: theories/Model/C12_Series.v (on period4_exp_series of Model/C03_Series.v). *)
From Coq Require Import Reals ZArith Lra Lia.
From Coquelicot Require Import Coquelicot.
From SM Require Import Base.Ops Base.Lin Base.RInst Model.Quat Model.C12_ExpLog Model.C12_ExpLogR Model.C03_Series Model.C12_Series.
From SMgen Require Import Consts_C12.
Open Scope R_scope.

Definition KR : qthr R := C12_thr Rops.

Theorem C12_pure_exp_is_series : forall (u0 u1 u2 th : R), u0*u0 + u1*u1 + u2*u2 = 1 ->
  forall c, (c < 4)%nat ->
  is_pseries (fun k => e4 (qpow_nat Rops (0, u0, u1, u2) k) c / INR (fact k)) th
             (e4 (cos th, sin th * u0, sin th * u1, sin th * u2) c).
Proof. intros u0 u1 u2 th Hu c _. exact (pure_qexp_is_series u0 u1 u2 th Hu c). Qed.
Print Assumptions C12_pure_exp_is_series.

Theorem C12_qexp_pure : forall (u0 u1 u2 th : R), u0*u0 + u1*u1 + u2*u2 = 1 -> 0 < th ->
  qexp Rops KR (0, th * u0, th * u1, th * u2) = Ok (true, (cos th, sin th * u0, sin th * u1, sin th * u2)).
Proof.
  intros u0 u1 u2 th Hu Hth.
  assert (Ht : 0 < t_exp KR /\ 0 < t_unit KR /\ t_unit KR <= 1/2) by (unfold KR, C12_thr; sm_simpl; cbn [t_exp t_unit]; repeat split; lra).
  destruct Ht as (Hte & Htu & Htu2).
  assert (Hn : nv3 (th * u0) (th * u1) (th * u2) = th).
  { unfold nv3. replace (th * u0 * (th * u0) + th * u1 * (th * u1) + th * u2 * (th * u2)) with (th * th * (u0*u0 + u1*u1 + u2*u2)) by ring.
    rewrite Hu, Rmult_1_r. apply sqrt_square. lra. }
  rewrite qexp_R by (rewrite Hn; exact Hth). cbv zeta. rewrite Hn, exp_0, Rabs_R0.
  rewrite Rltb_true_of by (exact Hte).
  replace (1 * cos th) with (cos th) by ring.
  replace (1 * (th * u0) / th * sin th) with (sin th * u0) by (field; lra).
  replace (1 * (th * u1) / th * sin th) with (sin th * u1) by (field; lra).
  replace (1 * (th * u2) / th * sin th) with (sin th * u2) by (field; lra).
  assert (HN : nq4 (cos th) (sin th * u0) (sin th * u1) (sin th * u2) = 1).
  { unfold nq4. replace (cos th * cos th + sin th * u0 * (sin th * u0) + sin th * u1 * (sin th * u1) + sin th * u2 * (sin th * u2))
      with (cos th * cos th + sin th * sin th * (u0*u0 + u1*u1 + u2*u2)) by ring.
    rewrite Hu, Rmult_1_r. pose proof (sin2_cos2 th) as E. unfold Rsqr in E. replace (cos th * cos th + sin th * sin th) with 1 by lra. apply sqrt_1. }
  rewrite qunit_R by (rewrite HN; lra). cbv zeta. rewrite HN. cbn [qbind]. unfold Rdiv. rewrite Rinv_1, !Rmult_1_r. reflexivity.
Qed.
Print Assumptions C12_qexp_pure.

Example C12_series_nonvacuous :
  (3/5)*(3/5) + 0*0 + (4/5)*(4/5) = 1 /\
  e4 (qpow_nat Rops (0, 1, 0, 0) 2) 0 / INR (fact 2) = -1/2 /\ e4 (qpow_nat Rops (0, 1, 0, 0) 3) 1 / INR (fact 3) = -1/6.
Proof. repeat split; try field; cbn [qpow_nat]; autounfold with smlin; sm_simpl; cbn [e4 fact Nat.mul Nat.add INR]; simpl; field. Qed.
