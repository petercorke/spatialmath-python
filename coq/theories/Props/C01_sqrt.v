(* C01 -- the square-root carrying constructors: axis-angle / Euler-vector / exponential (Rodrigues on the
   NORMALISED axis), two-vector frames (oa2r, trnorm), normalising unit-quaternion constructors and operators,
   random members as functions of their uniform variates.
   The tr_* definitions are concolic traces of the real code, regenerated on every run: comparisons met on the way are
   decided under a shadow valuation and emitted as the path condition pc_* (a conjunction of ltb/leb atoms).  Every
   theorem has the form  pc_f x -> member (tr_f x); coverage theorems show that the property's input domain (axis
   lengths >= 1e-3) lies inside the traced path.  Per-function results are Lemmas; the property theorems, each
   followed by Print Assumptions, conjoin them. *)
From Coq Require Import Reals ZArith Lra Nsatz.
From SM Require Import Base.Ops Base.Lin Base.RInst Base.RLin Model.C01_Lemmas.
From SMgen Require Import Traces_C01.
Open Scope R_scope.

(* one boolean atom of a path condition (ltb or leb, true or false -- whichever comparison the code uses) from an order fact *)
Ltac pc_atom := lazymatch goal with
  | |- Rltb _ _ = true => apply Rltb_true | |- Rltb _ _ = false => apply Rltb_false
  | |- Rleb _ _ = true => apply Rleb_true | |- Rleb _ _ = false => apply Rleb_false end; lra.

(* Rodrigues family: trace = rodrigues_cs (v/|v|) c s, hence in SO(3) *)
Ltac rod_core :=
  cs_gen;
  let n := fresh "n" in sqrt_name n;
  match goal with Hsq : n * n = ?x*?x + ?y*?y + ?z*?z, Hcs : ?c * ?c + ?s * ?s = 1 |- SO3 ?M =>
    replace M with (rodrigues_cs (vscale3 Rops (/ n) (x, y, z)) c s);
    [ apply SO3_rodrigues_cs; [ apply unit_vscale3; assumption | assumption ]
    | rewrite <- Hsq; lin_simpl; tuple_eq ltac:(field; assumption) ] end.
Ltac rod_so3 := open_tr; pc_facts; rod_core.
Ltac rod_se3 := open_tr; pc_facts; split; [ rod_core | reflexivity ].

Lemma C01_angvec2r : forall th v, (pc_tr_angvec2r_rad Rops th v -> SO3 (tr_angvec2r_rad Rops th v)) /\
                                  (pc_tr_angvec2r_deg Rops th v -> SO3 (tr_angvec2r_deg Rops th v)).
Proof. conjs; rod_so3. Qed.
(* the other path: a (near-)zero axis gives the identity *)
Lemma C01_angvec2r_zero_axis : forall th v, pc_tr_angvec2r_zero Rops th v -> SO3 (tr_angvec2r_zero Rops th v).
Proof. open_tr. unfold SO3. repeat split; ring. Qed.
Lemma C01_angvec2tr : forall th v, pc_tr_angvec2tr_rad Rops th v -> SE3 (tr_angvec2tr_rad Rops th v).
Proof. rod_se3. Qed.
Lemma C01_SO3_AngVec : forall th v, (pc_tr_SO3_AngVec_rad Rops th v -> SO3 (tr_SO3_AngVec_rad Rops th v)) /\
                                    (pc_tr_SO3_AngVec_deg Rops th v -> SO3 (tr_SO3_AngVec_deg Rops th v)).
Proof. conjs; rod_so3. Qed.
Lemma C01_SE3_AngVec : forall th v, (pc_tr_SE3_AngVec_rad Rops th v -> SE3 (tr_SE3_AngVec_rad Rops th v)) /\
                                    (pc_tr_SE3_AngVec_deg Rops th v -> SE3 (tr_SE3_AngVec_deg Rops th v)).
Proof. conjs; rod_se3. Qed.
Lemma C01_EulerVec : forall w, (pc_tr_SO3_EulerVec Rops w -> SO3 (tr_SO3_EulerVec Rops w)) /\
                               (pc_tr_SE3_EulerVec Rops w -> SE3 (tr_SE3_EulerVec Rops w)).
Proof. conjs; [ rod_so3 | rod_se3 ]. Qed.
Lemma C01_rodrigues : forall w, (pc_tr_rodrigues Rops w -> SO3 (tr_rodrigues Rops w)) /\
                                (pc_tr_trexp3 Rops w -> SO3 (tr_trexp3 Rops w)) /\
                                (pc_tr_SO3_Exp Rops w -> SO3 (tr_SO3_Exp Rops w)).
Proof. conjs; rod_so3. Qed.
(* rodrigues(w, theta) with theta given does not normalise: its contract is a unit axis *)
Lemma C01_rodrigues_theta_unit_axis : forall w th, normsq3 Rops w = 1 -> SO3 (tr_rodrigues_th Rops w th).
Proof. intros w th H. pose proof (SO3_rodrigues_cs w _ _ H (cs_unit th)) as M. destruct_tuples. gen_unfold. member_by M. Qed.
Example C01_rodrigues_theta_nonvacuous : normsq3 Rops (3/5, 0, 4/5) = 1.
Proof. lin_simpl. lra. Qed.
Lemma C01_SE3_Exp : forall S, pc_tr_SE3_Exp Rops S -> SE3 (tr_SE3_Exp Rops S).
Proof. rod_se3. Qed.

(* coverage of the property's domain: every axis of length >= 1e-3 (any angle) is on the traced path *)
Lemma C01_axis_domain_on_path : forall th v, 1/1000 <= sqrt (normsq3 Rops v) ->
  pc_tr_angvec2r_rad Rops th v /\ pc_tr_angvec2r_deg Rops th v /\ pc_tr_angvec2tr_rad Rops th v /\
  pc_tr_SO3_AngVec_rad Rops th v /\ pc_tr_SO3_AngVec_deg Rops th v /\ pc_tr_SE3_AngVec_rad Rops th v /\ pc_tr_SE3_AngVec_deg Rops th v /\
  pc_tr_SO3_EulerVec Rops v /\ pc_tr_SE3_EulerVec Rops v /\ pc_tr_rodrigues Rops v /\ pc_tr_trexp3 Rops v /\ pc_tr_SO3_Exp Rops v.
Proof.
  intros th v H. destruct_tuples. gen_unfold.
  conjs; pc_atom.
Qed.
Example C01_axis_domain_nonvacuous : 1/1000 <= sqrt (normsq3 Rops (2, 0, 0)).
Proof. lin_simpl. replace (2*2+0*0+0*0) with (2*2) by ring. rewrite sqrt_square; lra. Qed.

Theorem C01_axis_angle_constructors : forall (th : R) (v : V3 R) (S : V6 R), 1/1000 <= sqrt (normsq3 Rops v) ->
  SO3 (tr_angvec2r_rad Rops th v) /\ SO3 (tr_angvec2r_deg Rops th v) /\ SE3 (tr_angvec2tr_rad Rops th v) /\
  SO3 (tr_SO3_AngVec_rad Rops th v) /\ SO3 (tr_SO3_AngVec_deg Rops th v) /\ SE3 (tr_SE3_AngVec_rad Rops th v) /\ SE3 (tr_SE3_AngVec_deg Rops th v) /\
  SO3 (tr_SO3_EulerVec Rops v) /\ SE3 (tr_SE3_EulerVec Rops v) /\ SO3 (tr_rodrigues Rops v) /\ SO3 (tr_trexp3 Rops v) /\ SO3 (tr_SO3_Exp Rops v) /\
  (pc_tr_SE3_Exp Rops S -> SE3 (tr_SE3_Exp Rops S)) /\
  (pc_tr_angvec2r_zero Rops th v -> SO3 (tr_angvec2r_zero Rops th v)).
Proof.
  intros th v S H. pose proof (C01_axis_domain_on_path th v H) as P. decompose [and] P.
  pose proof (C01_angvec2r th v). pose proof (C01_angvec2tr th v). pose proof (C01_SO3_AngVec th v). pose proof (C01_SE3_AngVec th v).
  pose proof (C01_EulerVec v). pose proof (C01_rodrigues v). pose proof (C01_SE3_Exp S). pose proof (C01_angvec2r_zero_axis th v).
  tauto.
Qed.
Print Assumptions C01_axis_angle_constructors.

(* two-vector frames: columns n/|n|, o'/|o'|, a/|a| with n = o x a, o' = a x n *)
Ltac inv_of e := match e with context [1 / ?p] => p end.
Ltac frame_core o a :=
  sqrt_all;
  match goal with |- SO3 ((?e0, ?e1, ?e2), _, _) =>
    let pn := inv_of e0 in let po := inv_of e1 in let pa := inv_of e2 in
    replace (SO3 _) with (SO3 (frame_cols (cross3 Rops o a) (cross3 Rops a (cross3 Rops o a)) a pn po pa));
    [ apply SO3_frame; try assumption; lin_simpl;
      match goal with H : ?n * ?n = _ |- ?n * ?n = _ => rewrite H; ring end
    | f_equal; unfold frame_cols; lin_simpl; tuple_eq ltac:(field; assumption) ] end.

Lemma C01_oa2r : forall o a, (pc_tr_oa2r Rops o a -> SO3 (tr_oa2r Rops o a)) /\ (pc_tr_SO3_OA Rops o a -> SO3 (tr_SO3_OA Rops o a)).
Proof. intros [[o0 o1] o2] [[a0 a1] a2]. split; open_tr; pc_facts; frame_core (o0,o1,o2) (a0,a1,a2). Qed.
Lemma C01_oa2tr : forall o a, (pc_tr_oa2tr Rops o a -> SE3 (tr_oa2tr Rops o a)) /\ (pc_tr_SE3_OA Rops o a -> SE3 (tr_SE3_OA Rops o a)).
Proof. intros [[o0 o1] o2] [[a0 a1] a2]. split; open_tr; pc_facts; (split; [ frame_core (o0,o1,o2) (a0,a1,a2) | reflexivity ]). Qed.
(* trnorm rebuilds the frame from the 2nd and 3rd columns of ANY matrix on the path (no hypothesis that X is nearly orthonormal) *)
Lemma C01_trnorm3 : forall X, pc_tr_trnorm3 Rops X -> SO3 (tr_trnorm3 Rops X).
Proof. intros [[[[x00 x01] x02] [[x10 x11] x12]] [[x20 x21] x22]]. open_tr. pc_facts. frame_core (x01,x11,x21) (x02,x12,x22). Qed.
Lemma C01_trnorm4 : forall X, pc_tr_trnorm4 Rops X -> SE3 (tr_trnorm4 Rops X).
Proof.
  intros [[[ [[[x00 x01] x02] x03] [[[x10 x11] x12] x13] ] [[[x20 x21] x22] x23] ] [[[x30 x31] x32] x33] ].
  open_tr. pc_facts. split; [ frame_core (x01,x11,x21) (x02,x12,x22) | reflexivity ].
Qed.
(* the path condition is met by every non-parallel pair *)
Example C01_oa_path_nonvacuous : pc_tr_oa2r Rops (0,1,0) (0,0,1).
Proof.
  gen_unfold.
  repeat match goal with |- context [sqrt ?X] => let v := fresh in
     assert (v : sqrt X = 1) by (replace X with 1 by ring; apply sqrt_1); rewrite v; clear v end.
  conjs; pc_atom.
Qed.

(* 2-D normalisation trnorm2 (added to /repo by fix 7bb8ca6; SO2.norm() / SE2.norm() call it): the unit vector along the
   second column and its perpendicular, for ANY matrix on the path (second column not (nearly) zero) *)
Ltac so2_norm_core := sqrt_all; unfold SO2; repeat split; (field_simplify_eq; [ poly_nsatz | auto ]).
Lemma C01_trnorm2 : forall (X2 : M22 R) (X3 : M33 R),
  (pc_tr_trnorm2_so2 Rops X2 -> SO2 (tr_trnorm2_so2 Rops X2)) /\ (pc_tr_trnorm2_se2 Rops X3 -> SE2 (tr_trnorm2_se2 Rops X3)).
Proof.
  intros X2 X3. split.
  - open_tr. pc_facts. so2_norm_core.
  - open_tr. pc_facts. split; [ so2_norm_core | reflexivity ].
Qed.
Theorem C01_norm2_constructors : forall (X2 : M22 R) (X3 : M33 R),
  (pc_tr_trnorm2_so2 Rops X2 -> SO2 (tr_trnorm2_so2 Rops X2)) /\ (pc_tr_trnorm2_se2 Rops X3 -> SE2 (tr_trnorm2_se2 Rops X3)).
Proof. exact C01_trnorm2. Qed.
Print Assumptions C01_norm2_constructors.
Example C01_trnorm2_path_nonvacuous : pc_tr_trnorm2_so2 Rops ((1, 0), (0, 2)).
Proof.
  gen_unfold.
  assert (v : sqrt (0 * 0 + 2 * 2) = 2) by (replace (0*0+2*2) with (2*2) by ring; apply sqrt_square; lra).
  rewrite v. pc_atom.
Qed.

Theorem C01_frame_constructors : forall (o a : V3 R) (X3 : M33 R) (X4 : M44 R),
  (pc_tr_oa2r Rops o a -> SO3 (tr_oa2r Rops o a)) /\ (pc_tr_SO3_OA Rops o a -> SO3 (tr_SO3_OA Rops o a)) /\
  (pc_tr_oa2tr Rops o a -> SE3 (tr_oa2tr Rops o a)) /\ (pc_tr_SE3_OA Rops o a -> SE3 (tr_SE3_OA Rops o a)) /\
  (pc_tr_trnorm3 Rops X3 -> SO3 (tr_trnorm3 Rops X3)) /\ (pc_tr_trnorm4 Rops X4 -> SE3 (tr_trnorm4 Rops X4)).
Proof.
  intros. pose proof (C01_oa2r o a). pose proof (C01_oa2tr o a). pose proof (C01_trnorm3 X3). pose proof (C01_trnorm4 X4). tauto.
Qed.
Print Assumptions C01_frame_constructors.

(* unit quaternions: the trace is y / sqrt(y.y) (possibly nested), so its norm is 1 *)
(* However the quotient is written (UnitQ_of_scaled): with m the outer root (m*m = Y), the scaled entries e_i*m are
   the un-normalised components and their squares sum to Y (field) *)
Ltac unit_sem :=
  match goal with Hm : ?m * ?m = ?Y |- UnitQ _ =>
    apply (UnitQ_of_scaled _ _ _ _ m); [ assumption | ];
    rewrite Hm; clear Hm; repeat match goal with H : ?n * ?n = ?X |- context [?X] => rewrite <- H end; field; auto
  end.
(* no outer root: the entries are polynomials over the named roots, (c,s) pairs and unit axes *)
Ltac unit_poly := unfold UnitQ; field_simplify_eq; [ poly_nsatz | auto ].
(* a named root m (m*m = Y, m > 0) whose radicand Y is identically 1 under the polynomial hypotheses: m*m = 1 *)
Ltac sqrt_sq_one :=
  match goal with H : ?m * ?m = ?Y |- _ =>
    let E := fresh "Eone" in
    assert (E : m * m = 1) by (rewrite H; clear H; first [ solve [poly_nsatz] | solve [field_simplify_eq; [ poly_nsatz | auto ]] ]);
    clear H end.
(* normalised quotient / constant identity quaternion / (cos, sin * unit axis) *)
Ltac unit_tr := open_tr; pc_facts; cs_gen; sqrt_all; first [ unit_sem | unfold UnitQ; lra | unit_poly ].

Lemma C01_unit : forall q, pc_tr_unit Rops q -> UnitQ (tr_unit Rops q).
Proof. unit_tr. Qed.
Lemma C01_UQ_ctor : forall s v q, (pc_tr_UQ_sv Rops s v -> UnitQ (tr_UQ_sv Rops s v)) /\ (pc_tr_UQ_list Rops q -> UnitQ (tr_UQ_list Rops q)) /\
  (pc_tr_UQ_vec Rops q -> UnitQ (tr_UQ_vec Rops q)).   (* ndarray form: normalised since fix d0fc1b2 *)
Proof. conjs; unit_tr. Qed.
Lemma C01_UQ_Rxyz : forall a,
  (pc_tr_UQ_Rx_rad Rops a -> UnitQ (tr_UQ_Rx_rad Rops a)) /\ (pc_tr_UQ_Rx_deg Rops a -> UnitQ (tr_UQ_Rx_deg Rops a)) /\
  (pc_tr_UQ_Ry_rad Rops a -> UnitQ (tr_UQ_Ry_rad Rops a)) /\ (pc_tr_UQ_Ry_deg Rops a -> UnitQ (tr_UQ_Ry_deg Rops a)) /\
  (pc_tr_UQ_Rz_rad Rops a -> UnitQ (tr_UQ_Rz_rad Rops a)) /\ (pc_tr_UQ_Rz_deg Rops a -> UnitQ (tr_UQ_Rz_deg Rops a)).
Proof. conjs; unit_tr. Qed.
(* for the axis constructors the path condition holds for EVERY angle: sqrt(cos^2+sin^2) = 1 is not below 10 eps *)
Lemma C01_UQ_Rxyz_total : forall a, pc_tr_UQ_Rx_rad Rops a /\ pc_tr_UQ_Rx_deg Rops a /\ pc_tr_UQ_Ry_rad Rops a /\ pc_tr_UQ_Ry_deg Rops a /\
  pc_tr_UQ_Rz_rad Rops a /\ pc_tr_UQ_Rz_deg Rops a.
Proof.
  intros a. gen_unfold.
  repeat match goal with |- context [sqrt (cos ?t * cos ?t + sin ?t * sin ?t)] => rewrite (cs_unit t), sqrt_1 end.
  conjs; pc_atom.
Qed.
Lemma C01_UQ_EulerVec : forall w, pc_tr_UQ_EulerVec Rops w -> UnitQ (tr_UQ_EulerVec Rops w).
Proof. open_tr. pc_facts. cs_gen. sqrt_all. sqrt_sq_one. unit_poly. Qed.

Theorem C01_unit_quaternion_constructors : forall (a s : R) (v w : V3 R) (q : V4 R),
  UnitQ (tr_UQ_Rx_rad Rops a) /\ UnitQ (tr_UQ_Rx_deg Rops a) /\ UnitQ (tr_UQ_Ry_rad Rops a) /\ UnitQ (tr_UQ_Ry_deg Rops a) /\
  UnitQ (tr_UQ_Rz_rad Rops a) /\ UnitQ (tr_UQ_Rz_deg Rops a) /\
  (pc_tr_unit Rops q -> UnitQ (tr_unit Rops q)) /\ (pc_tr_UQ_sv Rops s v -> UnitQ (tr_UQ_sv Rops s v)) /\
  (pc_tr_UQ_list Rops q -> UnitQ (tr_UQ_list Rops q)) /\ (pc_tr_UQ_vec Rops q -> UnitQ (tr_UQ_vec Rops q)) /\
  (pc_tr_UQ_EulerVec Rops w -> UnitQ (tr_UQ_EulerVec Rops w)).
Proof.
  intros. pose proof (C01_UQ_Rxyz a). pose proof (C01_UQ_Rxyz_total a). pose proof (C01_unit q). pose proof (C01_UQ_ctor s v q).
  pose proof (C01_UQ_EulerVec w). tauto.
Qed.
Print Assumptions C01_unit_quaternion_constructors.
(* the normalising path is taken by every quaternion that is not (nearly) zero *)
Example C01_unit_path_nonvacuous : pc_tr_unit Rops (3, 0, 4, 0) /\ pc_tr_UQ_sv Rops 3 (0, 4, 0).
Proof.
  gen_unfold.
  repeat match goal with |- context [sqrt ?X] => let v := fresh in
     assert (v : sqrt X = 5) by (replace X with (5*5) by ring; apply sqrt_square; lra); rewrite v; clear v end.
  conjs; pc_atom.
Qed.

(* UnitQuaternion.AngVec: (cos(th/2), sin(th/2) v/|v|) -- the axis is normalised (repaired in /repo by
   50fbf86; before, the trace used v as given and the statement below was refuted by th = pi, v = (2,0,0)) *)
Lemma C01_UQ_AngVec : forall th v,
  (pc_tr_UQ_AngVec_rad Rops th v -> UnitQ (tr_UQ_AngVec_rad Rops th v)) /\
  (pc_tr_UQ_AngVec_deg Rops th v -> UnitQ (tr_UQ_AngVec_deg Rops th v)) /\
  (pc_tr_UQ_AngVec_zero Rops th v -> UnitQ (tr_UQ_AngVec_zero Rops th v)).
Proof. conjs; unit_tr. Qed.
Lemma C01_UQ_AngVec_domain_on_path : forall th v, 1/1000 <= sqrt (normsq3 Rops v) ->
  pc_tr_UQ_AngVec_rad Rops th v /\ pc_tr_UQ_AngVec_deg Rops th v.
Proof.
  intros th v H. destruct_tuples. gen_unfold.
  conjs; pc_atom.
Qed.
(* full strength: every axis of the property's domain (any length >= 1e-3), every angle, both units; zero axis -> identity *)
Theorem C01_UQ_AngVec_closed : forall th v,
  (1/1000 <= sqrt (normsq3 Rops v) -> UnitQ (tr_UQ_AngVec_rad Rops th v) /\ UnitQ (tr_UQ_AngVec_deg Rops th v)) /\
  (pc_tr_UQ_AngVec_zero Rops th v -> UnitQ (tr_UQ_AngVec_zero Rops th v)).
Proof.
  intros th v. pose proof (C01_UQ_AngVec th v) as (A & B & C). split; [|exact C].
  intros H. destruct (C01_UQ_AngVec_domain_on_path th v H). split; auto.
Qed.
Print Assumptions C01_UQ_AngVec_closed.
(* th = pi, v = (2,0,0), which fails without the normalisation of the axis, is inside the domain *)
Example C01_UQ_AngVec_nonvacuous : 1/1000 <= sqrt (normsq3 Rops (2, 0, 0)) /\ UnitQ (tr_UQ_AngVec_rad Rops PI (2, 0, 0)).
Proof.
  pose proof C01_axis_domain_nonvacuous as H. split; [exact H|]. apply (C01_UQ_AngVec_closed PI (2,0,0)). exact H.
Qed.

(* operators through the UnitQuaternion class: * / inv ** re-normalise their result *)
Lemma C01_UQ_mul_div_inv : forall p q,
  (pc_tr_UQ_mul Rops p q -> UnitQ (tr_UQ_mul Rops p q)) /\ (pc_tr_UQ_div Rops p q -> UnitQ (tr_UQ_div Rops p q)) /\
  (pc_tr_UQ_inv Rops q -> UnitQ (tr_UQ_inv Rops q)).
Proof. conjs; unit_tr. Qed.
Lemma C01_UQ_pow : forall q,
  (pc_tr_UQ_pow0 Rops q -> UnitQ (tr_UQ_pow0 Rops q)) /\ (pc_tr_UQ_pow1 Rops q -> UnitQ (tr_UQ_pow1 Rops q)) /\
  (pc_tr_UQ_pow2 Rops q -> UnitQ (tr_UQ_pow2 Rops q)) /\ (pc_tr_UQ_pow3 Rops q -> UnitQ (tr_UQ_pow3 Rops q)) /\
  (pc_tr_UQ_powm1 Rops q -> UnitQ (tr_UQ_powm1 Rops q)) /\ (pc_tr_UQ_powm2 Rops q -> UnitQ (tr_UQ_powm2 Rops q)).
Proof. conjs; unit_tr. Qed.
(* the kernels themselves preserve the unit norm exactly (no renormalisation needed in L-real) *)
Lemma C01_qqmul_conj_unit : forall p q, UnitQ p -> UnitQ q -> UnitQ (tr_qqmul Rops p q) /\ UnitQ (tr_conj Rops q).
Proof.
  intros p q Hp Hq. destruct_tuples. gen_unfold. split; [ member_by (UnitQ_mul _ _ Hp Hq) | member_by (UnitQ_conj _ Hq) ].
Qed.

Theorem C01_unit_quaternion_operators : forall p q : V4 R,
  (UnitQ p -> UnitQ q -> UnitQ (tr_qqmul Rops p q) /\ UnitQ (tr_conj Rops q)) /\
  (pc_tr_UQ_mul Rops p q -> UnitQ (tr_UQ_mul Rops p q)) /\ (pc_tr_UQ_div Rops p q -> UnitQ (tr_UQ_div Rops p q)) /\
  (pc_tr_UQ_inv Rops q -> UnitQ (tr_UQ_inv Rops q)) /\
  (pc_tr_UQ_pow0 Rops q -> UnitQ (tr_UQ_pow0 Rops q)) /\ (pc_tr_UQ_pow1 Rops q -> UnitQ (tr_UQ_pow1 Rops q)) /\
  (pc_tr_UQ_pow2 Rops q -> UnitQ (tr_UQ_pow2 Rops q)) /\ (pc_tr_UQ_pow3 Rops q -> UnitQ (tr_UQ_pow3 Rops q)) /\
  (pc_tr_UQ_powm1 Rops q -> UnitQ (tr_UQ_powm1 Rops q)) /\ (pc_tr_UQ_powm2 Rops q -> UnitQ (tr_UQ_powm2 Rops q)).
Proof.
  intros. pose proof (C01_UQ_mul_div_inv p q). pose proof (C01_UQ_pow q). pose proof (C01_qqmul_conj_unit p q). tauto.
Qed.
Print Assumptions C01_unit_quaternion_operators.
Example C01_unit_operands_nonvacuous : UnitQ (3/5, 0, 4/5, 0) /\ UnitQ (0, 0, 0, 1).
Proof. unfold UnitQ. split; lra. Qed.

(* random members as functions of their uniform variates u in [0,1]^3 *)
Lemma C01_rand_unit : forall u, 0 <= fst (fst u) <= 1 -> UnitQ (tr_rand Rops u).
Proof. open_tr. pc_facts. cs_gen. repeat (let n := fresh "n" in sqrt_nonneg n). unfold UnitQ. poly_nsatz. Qed.
Lemma C01_UQ_Rand_unit : forall u, 0 <= fst (fst u) <= 1 -> pc_tr_UQ_Rand Rops u -> UnitQ (tr_UQ_Rand Rops u).
Proof. open_tr. pc_facts. cs_gen. sqrt_all. sqrt_sq_one. repeat (let n := fresh "n" in sqrt_nonneg n). unit_poly. Qed.
Lemma C01_SO3_Rand_SO3 : forall u, 0 <= fst (fst u) <= 1 -> SO3 (tr_SO3_Rand Rops u).
Proof.
  (* SO3.Rand is q2r of base.rand, with the squares of the two roots replaced by their radicands *)
  intros u Hu. generalize (SO3_of_UnitQ _ (C01_rand_unit u Hu)).
  open_tr. pc_facts. cs_gen. repeat (let n := fresh "n" in sqrt_nonneg n).
  match goal with HM : SO3 ?B, H1 : ?n * ?n = _, H2 : ?m * ?m = _ |- SO3 ?A =>
    replace A with B by tuple_eq ltac:(ring [H1 H2]); exact HM end.
Qed.

Theorem C01_random_members : forall u : V3 R, 0 <= fst (fst u) <= 1 ->
  UnitQ (tr_rand Rops u) /\ (pc_tr_UQ_Rand Rops u -> UnitQ (tr_UQ_Rand Rops u)) /\ SO3 (tr_SO3_Rand Rops u).
Proof. intros u H. pose proof (C01_rand_unit u H). pose proof (C01_UQ_Rand_unit u H). pose proof (C01_SO3_Rand_SO3 u H). tauto. Qed.
Print Assumptions C01_random_members.
Example C01_random_nonvacuous : 0 <= fst (fst (1/4, 1/3, 1/2)) <= 1.
Proof. simpl. lra. Qed.
