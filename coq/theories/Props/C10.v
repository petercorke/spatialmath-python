(* C10 -- list behaviour of the pose / quaternion / twist classes matches a Python list of the element values.
   Model (theories/Model/C10_SMList.v) mirrors spatialmath/smuserlist.py as it is; specification
   (theories/Model/C10_PyList.v) is the CPython list.  Both are tied to /repo and to a real Python list on every run
   by props/C10.py (three-way T-seq).  Kind B: lists and Z only -- no Reals, no axioms.

   The library as it stands after its commits 639aa3a (slices through slice.indices, Empty() for an empty result),
   40af48b (the same for SpatialVector.__getitem__), e8a8671 (extend uses iterable.data), 1105ad0 (cls([]) gives an
   empty object) and b1d6482 (append/insert/__setitem__ test len(x) != 1) meets the FULL STATEMENT
     forall C st ops, run (m_step C) st ops = run s_step st ops
   without any guard (C10_run_refines), for every class and every history of any length.          *)
From Coq Require Import ZArith List Lia Bool.
From SM Require Import Model.C10_PyList Model.C10_SMList Model.C10_World.
Import ListNotations.
Open Scope Z_scope.

Definition SE3like : cls := Build_cls true.       (* poses, quaternions, twists: SMUserList.__getitem__ *)
Definition SVlike : cls := Build_cls false.       (* SpatialVector family: its own __getitem__ over data[i] *)

(* integer index: IndexError exactly when a list would, otherwise the element a list would give, as one object;
        all lengths, all indices, every class *)
Theorem C10_int_index : forall C st i,
  m_step C st (GetItem i) = s_step st (GetItem i) /\
  (snd (m_step C st (GetItem i)) = Raise IndexError <-> (i < - zlen st \/ zlen st <= i)) /\
  (forall r, snd (m_step C st (GetItem i)) = Ok r ->
     exists p, 0 <= p < zlen st /\ (p = i \/ p = i + zlen st) /\ r = Obj [znth st p]) /\
  fst (m_step C st (GetItem i)) = st.
Proof.
  intros C st i. split; [reflexivity|]. cbn [m_step fst snd]. unfold py_getitem.
  destruct (py_index_cases (zlen st) i (zlen_nonneg st)) as [[-> Hr]|(p & -> & Hr & Hp & Hk)].
  - split; [split; [intros _; exact Hr | reflexivity]|]. split; [discriminate | reflexivity].
  - split; [split; [discriminate | lia]|]. split; [|reflexivity]. intros r [= <-]. now exists p.
Qed.
Print Assumptions C10_int_index.

Example C10_int_index_ex :
  m_step SE3like [1;2;3] (GetItem (-1)) = ([1;2;3], Ok (Obj [3])) /\
  m_step SE3like [1;2;3] (GetItem 3) = ([1;2;3], Raise IndexError) /\
  m_step SE3like [1;2;3] (GetItem (-4)) = ([1;2;3], Raise IndexError).
Proof. repeat split. Qed.

(* slices, FULL STRENGTH: for every list, start, stop and step (omitted, negative, out of range, step 0 included)
        the result, its error kind and the state are those of a Python list *)
Theorem C10_slice_full : forall C st a b c,
  m_step C st (GetSlice a b c) = s_step st (GetSlice a b c).
Proof. intros. apply step_refines. Qed.
Print Assumptions C10_slice_full.

(* every selected position is a position of the list (so no data[k] can raise), all lengths and arguments *)
Theorem C10_slice_positions_in_range : forall len a b c ks, 0 <= len ->
  py_slice_indices len a b c = Ok ks -> forall k, In k ks -> 0 <= k < len.
Proof. exact slice_indices_in_range. Qed.
Print Assumptions C10_slice_positions_in_range.

(* the cells that were wrong before the fix, now equal to the list's value *)
Example C10_slice_examples :
  let st := [1;2;3;4;5] in
  snd (m_step SE3like st (GetSlice (Some 0) (Some (-1)) None)) = Ok (Obj [1;2;3;4]) /\
  snd (m_step SE3like st (GetSlice (Some (-2)) None None)) = Ok (Obj [4;5]) /\
  snd (m_step SE3like st (GetSlice None None (Some (-1)))) = Ok (Obj [5;4;3;2;1]) /\
  snd (m_step SE3like st (GetSlice (Some 3) (Some 9) None)) = Ok (Obj [4;5]) /\
  snd (m_step SE3like st (GetSlice None None (Some 0))) = Raise ValueError /\
  snd (m_step SE3like st (GetSlice (Some 2) (Some 2) None)) = Ok (Obj []) /\
  snd (m_step SE3like st (GetSlice (Some 1) (Some 4) (Some 2))) = Ok (Obj [2;4]) /\
  snd (m_step SE3like st (GetSlice (Some (-7)) (Some 7) (Some (-3)))) = Ok (Obj []).
Proof. vm_compute. repeat split. Qed.

(* the SpatialVector classes (own_slice = false) are covered by C10_slice_full as well; the cell that was wrong before 40af48b *)
Example C10_slice_delegate_ex :
  m_step SVlike [1;2;3;4;5] (GetSlice None None (Some (-2))) = ([1;2;3;4;5], Ok (Obj [5;3;1])) /\
  m_step SVlike [1;2;3;4;5] (GetSlice None None (Some 0)) = ([1;2;3;4;5], Raise ValueError) /\
  m_step SVlike [1;2;3;4;5] (GetSlice (Some 2) (Some 2) None) = ([1;2;3;4;5], Ok (Obj [])).
Proof. vm_compute. repeat split. Qed.

(* the property's slice grid (lengths 0..5, start/stop in {None,-7..7}, step in {None,+-1,+-2,+-3}: 6 x 1792 cells),
   the number of cells on which model and list disagree (none, for either __getitem__: they agree on every operation) *)
Theorem C10_slice_grid_census :
  Z.of_nat (length grid_slices) = 1792 /\
  Z.of_nat (grid_disagreements SE3like) = 0 /\ Z.of_nat (grid_disagreements SVlike) = 0.
Proof. rewrite !grid_disagreements_0. repeat split. Qed.
Print Assumptions C10_slice_grid_census.

(* iteration: yields every element, in order, each as a single-valued object of the class; all lengths *)
Theorem C10_iter : forall C st, m_step C st Iter = (st, Ok (Objs (map (fun t => [t]) st))).
Proof. intros. apply step_refines. Qed.
Print Assumptions C10_iter.

(* every operation, UNCONDITIONAL: every class, every state, every operation and operand *)
Theorem C10_step_refines : forall C st o, m_step C st o = s_step st o.
Proof. exact step_refines. Qed.
Print Assumptions C10_step_refines.

(* operation sequences of ANY length (induction over the sequence): final state and every output, error kinds
        included, equal those of the list *)
Theorem C10_run_refines : forall C ops st, run (m_step C) st ops = run s_step st ops.
Proof. exact run_refines. Qed.
Print Assumptions C10_run_refines.

Example C10_run_refines_nonvacuous :
  let ops := [Append (Same [7]); Insert (-9) (Same [8]); GetItem (-1); SetItem 1 (Same [9]); Pop 0; Extend (Same [5;6]);
              Extend (Same []); GetSlice (Some (-2)) (Some (-9)) (Some (-2)); Iter; DelItem (-2); Reverse; Pop 7; SetItem 0 Other;
              Extend (Same [4]); GetSlice (Some 3) (Some 3) None; GetSlice None None (Some 0); Pop (-1);
              Append (Same [1;2]); CtorIter; DelSlice None None (Some (-2)); Len; Clear; Pop (-1); Alloc 2; CtorCopy; Append (Same []); Insert 0 (Same [])] in
  run (m_step SE3like) [1;2;3] ops = run s_step [1;2;3] ops /\
  fst (run (m_step SE3like) [1;2;3] ops) = [0;0] /\
  nth 7 (snd (run (m_step SE3like) [1;2;3] ops)) (Raise TypeError) = Ok (Obj [5;3;9]) /\
  nth 11 (snd (run (m_step SE3like) [1;2;3] ops)) (Ok NoneV) = Raise IndexError /\
  nth 14 (snd (run (m_step SE3like) [1;2;3] ops)) (Ok NoneV) = Ok (Obj []) /\
  nth 15 (snd (run (m_step SE3like) [1;2;3] ops)) (Ok NoneV) = Raise ValueError.
Proof. vm_compute. repeat split. Qed.

(* extend, FULL STRENGTH: every operand of the same class, of any length (0, 1, many) *)
Theorem C10_extend_full : forall C st ts,
  m_step C st (Extend (Same ts)) = s_step st (Extend (Same ts)) /\ m_step C st (Extend (Same ts)) = (st ++ ts, Ok NoneV).
Proof. intros. split; reflexivity. Qed.
Print Assumptions C10_extend_full.

Example C10_extend_ex : fst (m_step SE3like [1;2;3] (Extend (Same [9]))) = [1;2;3;9].
Proof. reflexivity. Qed.

(* an EMPTY object is not a value: setitem/append/insert reject it like a multi-valued one (since /repo b1d6482) *)
Theorem C10_empty_operand_rejected : forall C st i,
  m_step C st (Append (Same [])) = (st, Raise ValueError) /\
  m_step C st (Insert i (Same [])) = (st, Raise ValueError) /\
  m_step C st (SetItem i (Same [])) = (st, Raise ValueError) /\
  m_step C st (Extend (Same [])) = (st ++ [], Ok NoneV).
Proof. intros. repeat split. Qed.
Print Assumptions C10_empty_operand_rejected.

(* construction, FULL STRENGTH: from the object's own elements (iteration + constructor from a list of objects),
        from any list of single-valued objects (the empty list included), copy constructor, Alloc, Empty *)
Theorem C10_construction_full : forall C st ts n,
  m_step C st CtorIter = s_step st CtorIter /\ m_step C st CtorIter = (st, Ok NoneV) /\
  m_step C st (CtorFrom ts) = (ts, Ok NoneV) /\ m_step C st (CtorFrom ts) = s_step st (CtorFrom ts) /\
  m_step C st CtorCopy = (st, Ok NoneV) /\ m_step C st (Alloc n) = (py_repeat 0 n, Ok NoneV) /\ m_step C st Empty = ([], Ok NoneV).
Proof.
  intros C st ts n. rewrite (step_refines C st CtorIter). repeat split.
Qed.
Print Assumptions C10_construction_full.

Example C10_construction_ex :
  m_step SE3like [] CtorIter = ([], Ok NoneV) /\ m_step SE3like [1] (CtorFrom []) = ([], Ok NoneV) /\
  m_step SVlike [4;5] CtorIter = ([4;5], Ok NoneV) /\ m_step SE3like [1] (Alloc 3) = ([0;0;0], Ok NoneV).
Proof. vm_compute. repeat split. Qed.

(* a failed operation leaves the object unchanged: every operation, every state, every class, no guard *)
Theorem C10_failed_op_unchanged : forall C st o e, snd (m_step C st o) = Raise e -> fst (m_step C st o) = st.
Proof. exact failed_unchanged. Qed.
Print Assumptions C10_failed_op_unchanged.

(* an object of another class, or a multi-valued one where one value is required, raises and changes nothing *)
Theorem C10_bad_operand_rejected : forall C st v i, bad_operand v ->
  m_step C st (Append v) = (st, Raise ValueError) /\
  m_step C st (Insert i v) = (st, Raise ValueError) /\
  m_step C st (SetItem i v) = (st, Raise ValueError) /\
  m_step C st (Extend Other) = (st, Raise ValueError).
Proof. intros C st v i H. cbn [m_step]. rewrite (bad_single_operand v H). repeat split. Qed.
Print Assumptions C10_bad_operand_rejected.

Example C10_bad_operand_nonvacuous : bad_operand Other /\ bad_operand (Same [4;5]) /\ bad_operand (Same []) /\
  m_step SE3like [1;2] (SetItem 9 (Same [4;5])) = ([1;2], Raise ValueError).
Proof. vm_compute. repeat split; discriminate. Qed.

(* lengths: what each successful mutator does to len(), for every list and argument (specification side; carried
        to the model by C10_step_refines) *)
Theorem C10_lengths : forall st i v,
  zlen (py_insert st i v) = zlen st + 1 /\
  (forall st', py_setitem st i v = Ok st' -> zlen st' = zlen st) /\
  (forall st', py_delitem st i = Ok st' -> zlen st' = zlen st - 1) /\
  (forall x st', py_pop st i = Ok (x, st') -> zlen st' = zlen st - 1 /\ In x st).
Proof.
  intros st i v. repeat apply conj.
  - apply py_insert_length.
  - apply py_setitem_length.
  - apply py_delitem_length.
  - apply py_pop_length.
Qed.
Print Assumptions C10_lengths.

(* reversed(x): Sequence.__reversed__ through __getitem__ yields the elements in reverse order, all lengths *)
Theorem C10_reversed : forall C st, m_step C st IterRev = (st, Ok (Objs (map (fun t => [t]) (rev st)))).
Proof. intros. apply step_refines. Qed.
Print Assumptions C10_reversed.

(* several live objects and iterators (Model/C10_World.v): ownership of results, iteration protocol *)

(* the generator of Sequence.__iter__ and the list iterator produce the same item / end at the same position,
   for every list and every position an iterator can reach *)
Theorem C10_iterator_next : forall st i, 0 <= i -> m_next st i = s_next st i.
Proof. exact next_agree. Qed.
Print Assumptions C10_iterator_next.

(* histories of ANY length over any number of objects and iterators -- operations addressed to the receiver, to earlier
   results (items, slices, popped values, constructed copies), iter() and next() in any interleaving: every output and
   every object's final state equal those of Python lists and list iterators *)
Theorem C10_world_refines : forall C ops w, wf w -> wrun (wm_step C) w ops = wrun ws_step w ops.
Proof. exact wrun_refines. Qed.
Print Assumptions C10_world_refines.

Corollary C10_world_refines_from_start : forall C ops n, wrun (wm_step C) (wstart n) ops = wrun ws_step (wstart n) ops.
Proof. intros. apply wrun_refines. constructor. Qed.
Print Assumptions C10_world_refines_from_start.

(* RESULTS SHARE NO STATE WITH THE RECEIVER: an operation changes no object other than the one it is applied to (a
   constructor and an iterator step change none); every object-valued result is a new object, appended to the store *)
Theorem C10_results_are_independent : forall C w a u, (u < length (objs w))%nat -> target a <> Some u ->
  nth_error (objs (fst (wm_step C w a))) u = nth_error (objs w) u /\
  (length (objs w) <= length (objs (fst (wm_step C w a))))%nat.
Proof. intros C w a u Hu Ht. split; [apply frame; assumption | apply objs_grow]. Qed.
Print Assumptions C10_results_are_independent.

(* two iterators over the same object are independent *)
Theorem C10_iterators_independent : forall C w j k, j <> k -> (j < length (its w))%nat ->
  nth_error (its (fst (wm_step C w (ItNext j)))) k = nth_error (its w) k.
Proof. intros. apply iterators_independent; assumption. Qed.
Print Assumptions C10_iterators_independent.

(* non-vacuity: x[0] of a single-valued object is a new object -- appending to it leaves x alone;
   zip(x, x) pairs every item with itself; an exhausted iterator stays exhausted after the object grows *)
Example C10_world_ex :
  objs (fst (wrun (wm_step SE3like) (wstart 1) [On 0 (GetItem 0); On 1 (Append (Same [9]))])) = [[1]; [1; 9]] /\
  snd (wrun (wm_step SE3like) (wstart 2) [ItNew 0; ItNew 0; ItNext 0; ItNext 1; ItNext 0; ItNext 1; ItNext 0; ItNext 1])
    = [Ok NoneV; Ok NoneV; Ok (Obj [1]); Ok (Obj [1]); Ok (Obj [2]); Ok (Obj [2]); Raise StopIteration; Raise StopIteration] /\
  snd (wrun (wm_step SE3like) (wstart 1) [ItNew 0; ItNext 0; ItNext 0; On 0 (Append (Same [7])); ItNext 0])
    = [Ok NoneV; Ok (Obj [1]); Raise StopIteration; Ok NoneV; Raise StopIteration].
Proof. vm_compute. repeat split. Qed.
