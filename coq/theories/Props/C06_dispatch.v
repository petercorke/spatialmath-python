(* C06 -- the shape dispatch of (pose) * (points): an N-column array is transformed column by column exactly as N
   separate calls would, for EVERY N; a multi-valued pose applied to one point gives one column per pose value,
   for EVERY length.
   Model: theories/Model/C06_Dispatch.v (hand-written, mirrors SMPose.__mul__ as it is), tied
     - to the regenerated traces here: for N = 1..4 (N = dim included) and lengths 2, 3 the traced library result
       IS what the model says, with the traced one-point kernel;
     - to the implementation by the exhaustive grid run (vm_compute of [dispatch] vs the real call) in props/C06.py. *)
From Coq Require Import Reals ZArith Lra List Arith Lia.
From SM Require Import Base.Ops Base.Lin Base.RInst Base.RLin Model.C06_Dispatch.
From SMgen Require Import Traces_C06.
Import ListNotations.
Open Scope R_scope.

Definition act3 (X : M44 R) (p : V3 R) : V3 R := vadd3 Rops (mv33 Rops (t2r3 X) p) (transl3 X).
Definition act2 (X : M33 R) (p : V2 R) : V2 R := vadd2 Rops (mv22 Rops (t2r2 X) p) (transl2 X).
Definition hom4 (X : M44 R) : Prop := lastrow4 X = (0, 0, 0, 1).
Definition hom3 (X : M33 R) : Prop := lastrow3 X = (0, 0, 1).
#[local] Hint Unfold act3 act2 : smlin.
Ltac use_hom :=
  repeat match goal with
         | H : hom4 _ |- _ => unfold hom4 in H; simpl in H; injection H as -> -> -> ->
         | H : hom3 _ |- _ => unfold hom3 in H; simpl in H; injection H as -> -> ->
         end.
Ltac gen_field := intros; destruct_tuples; use_hom; gen_unfold; tuple_eq ltac:(first [reflexivity | field; lra]).

(* the one-point kernels (the traced library call on one pose and one point) *)
Definition kSE3 (X : M44 R) (p : V3 R) : V3 R := tr_SE3_v Rops X p.
Definition kSO3 (X : M33 R) (p : V3 R) : V3 R := tr_SO3_v Rops X p.
Definition kSE2 (X : M33 R) (p : V2 R) : V2 R := tr_SE2_v Rops X p.
Definition kSO2 (X : M22 R) (p : V2 R) : V2 R := tr_SO2_v Rops X p.
Definition kUQ (q : V4 R) (p : V3 R) : V3 R := tr_UQ_v Rops q p.
Definition z3 : V3 R := (0, 0, 0).
Definition z2 : V2 R := (0, 0).

Lemma kSE3_point X p : hom4 X -> kSE3 X p = act3 X p.  Proof. unfold kSE3. revert X p. gen_field. Qed.
Lemma kSE2_point X p : hom3 X -> kSE2 X p = act2 X p.  Proof. unfold kSE2. revert X p. gen_field. Qed.
Lemma kSO3_point X p : kSO3 X p = mv33 Rops X p.  Proof. unfold kSO3. revert X p. gen_ring. Qed.
Lemma kSO2_point X p : kSO2 X p = mv22 Rops X p.  Proof. unfold kSO2. revert X p. gen_ring. Qed.

Ltac model_eval := unfold pose_mul; simpl length;
  (rewrite dispatch_single_array by lia) || (vm_compute dispatch);
  cbn [cols map seq fst snd nth].
(* an equation between two results reduced to the equations between their columns *)
Ltac list_eq := repeat match goal with |- inr _ = inr _ => apply f_equal | |- cons _ _ = cons _ _ => apply f_equal2 | |- nil = nil => reflexivity end.

(* tie: traced d x N results (N = 1..4) are the model *)
Theorem C06_SE3_array_is_model : forall (X : M44 R) (p0 p1 p2 p3 : V3 R), hom4 X ->
  pose_mul kSE3 X z3 [X] [p0] (FArr2 3 1) 3 = inr [tr_SE3_col Rops X p0] /\
  pose_mul kSE3 X z3 [X] [p0; p1] (FArr2 3 2) 3 = inr [tr_SE3_a2_c0 Rops X p0 p1; tr_SE3_a2_c1 Rops X p0 p1] /\
  pose_mul kSE3 X z3 [X] [p0; p1; p2] (FArr2 3 3) 3 =
    inr [tr_SE3_a3_c0 Rops X p0 p1 p2; tr_SE3_a3_c1 Rops X p0 p1 p2; tr_SE3_a3_c2 Rops X p0 p1 p2] /\
  pose_mul kSE3 X z3 [X] [p0; p1; p2; p3] (FArr2 3 4) 3 =
    inr [tr_SE3_a4_c0 Rops X p0 p1 p2 p3; tr_SE3_a4_c1 Rops X p0 p1 p2 p3; tr_SE3_a4_c2 Rops X p0 p1 p2 p3; tr_SE3_a4_c3 Rops X p0 p1 p2 p3].
Proof.
  intros X p0 p1 p2 p3 H. unfold kSE3. repeat split; model_eval; list_eq; revert H; gen_field.
Qed.
Print Assumptions C06_SE3_array_is_model.

Theorem C06_SO3_array_is_model : forall (X : M33 R) (p0 p1 p2 p3 : V3 R),
  pose_mul kSO3 X z3 [X] [p0] (FArr2 3 1) 3 = inr [tr_SO3_col Rops X p0] /\
  pose_mul kSO3 X z3 [X] [p0; p1] (FArr2 3 2) 3 = inr [tr_SO3_a2_c0 Rops X p0 p1; tr_SO3_a2_c1 Rops X p0 p1] /\
  pose_mul kSO3 X z3 [X] [p0; p1; p2] (FArr2 3 3) 3 =
    inr [tr_SO3_a3_c0 Rops X p0 p1 p2; tr_SO3_a3_c1 Rops X p0 p1 p2; tr_SO3_a3_c2 Rops X p0 p1 p2] /\
  pose_mul kSO3 X z3 [X] [p0; p1; p2; p3] (FArr2 3 4) 3 =
    inr [tr_SO3_a4_c0 Rops X p0 p1 p2 p3; tr_SO3_a4_c1 Rops X p0 p1 p2 p3; tr_SO3_a4_c2 Rops X p0 p1 p2 p3; tr_SO3_a4_c3 Rops X p0 p1 p2 p3].
Proof.
  intros X p0 p1 p2 p3. unfold kSO3. repeat split; model_eval; list_eq; gen_ring.
Qed.
Print Assumptions C06_SO3_array_is_model.

Theorem C06_SE2_array_is_model : forall (X : M33 R) (p0 p1 p2 p3 : V2 R), hom3 X ->
  pose_mul kSE2 X z2 [X] [p0] (FArr2 2 1) 2 = inr [tr_SE2_col Rops X p0] /\
  pose_mul kSE2 X z2 [X] [p0; p1] (FArr2 2 2) 2 = inr [tr_SE2_a2_c0 Rops X p0 p1; tr_SE2_a2_c1 Rops X p0 p1] /\
  pose_mul kSE2 X z2 [X] [p0; p1; p2] (FArr2 2 3) 2 =
    inr [tr_SE2_a3_c0 Rops X p0 p1 p2; tr_SE2_a3_c1 Rops X p0 p1 p2; tr_SE2_a3_c2 Rops X p0 p1 p2] /\
  pose_mul kSE2 X z2 [X] [p0; p1; p2; p3] (FArr2 2 4) 2 =
    inr [tr_SE2_a4_c0 Rops X p0 p1 p2 p3; tr_SE2_a4_c1 Rops X p0 p1 p2 p3; tr_SE2_a4_c2 Rops X p0 p1 p2 p3; tr_SE2_a4_c3 Rops X p0 p1 p2 p3].
Proof.
  intros X p0 p1 p2 p3 H. unfold kSE2. repeat split; model_eval; list_eq; revert H; gen_field.
Qed.
Print Assumptions C06_SE2_array_is_model.

Theorem C06_SO2_array_is_model : forall (X : M22 R) (p0 p1 p2 p3 : V2 R),
  pose_mul kSO2 X z2 [X] [p0] (FArr2 2 1) 2 = inr [tr_SO2_col Rops X p0] /\
  pose_mul kSO2 X z2 [X] [p0; p1] (FArr2 2 2) 2 = inr [tr_SO2_a2_c0 Rops X p0 p1; tr_SO2_a2_c1 Rops X p0 p1] /\
  pose_mul kSO2 X z2 [X] [p0; p1; p2] (FArr2 2 3) 2 =
    inr [tr_SO2_a3_c0 Rops X p0 p1 p2; tr_SO2_a3_c1 Rops X p0 p1 p2; tr_SO2_a3_c2 Rops X p0 p1 p2] /\
  pose_mul kSO2 X z2 [X] [p0; p1; p2; p3] (FArr2 2 4) 2 =
    inr [tr_SO2_a4_c0 Rops X p0 p1 p2 p3; tr_SO2_a4_c1 Rops X p0 p1 p2 p3; tr_SO2_a4_c2 Rops X p0 p1 p2 p3; tr_SO2_a4_c3 Rops X p0 p1 p2 p3].
Proof.
  intros X p0 p1 p2 p3. unfold kSO2. repeat split; model_eval; list_eq; gen_ring.
Qed.
Print Assumptions C06_SO2_array_is_model.

(* the homogeneous function route and the unit-quaternion route on arrays are columnwise too *)
Theorem C06_homtrans_UQ_array_columns : forall (X : M44 R) (q : V4 R) (p0 p1 p2 : V3 R), hom4 X ->
  tr_homtrans3_a2_c1 Rops X p0 p1 = kSE3 X p1 /\
  tr_UQ_a2_c0 Rops q p0 p1 = kUQ q p0 /\ tr_UQ_a2_c1 Rops q p0 p1 = kUQ q p1 /\
  tr_UQ_a3_c0 Rops q p0 p1 p2 = kUQ q p0 /\ tr_UQ_a3_c1 Rops q p0 p1 p2 = kUQ q p1 /\ tr_UQ_a3_c2 Rops q p0 p1 p2 = kUQ q p2.
Proof.
  intros X q p0 p1 p2 H. unfold kSE3, kUQ. split; [revert H; gen_field|]. clear H. repeat split; gen_ring.
Qed.
Print Assumptions C06_homtrans_UQ_array_columns.

(* tie: traced multi-valued pose x one point (lengths 2, 3) *)
Theorem C06_multi_is_model_3D : forall (X0 X1 X2 : M44 R) (Y0 Y1 Y2 : M33 R) (p : V3 R) (f : form),
  hom4 X0 -> hom4 X1 -> hom4 X2 -> isvector f 3 = true ->
  pose_mul kSE3 X0 z3 [X0; X1] [p] f 3 = inr [tr_SE3_m2_c0 Rops X0 X1 p; tr_SE3_m2_c1 Rops X0 X1 p] /\
  pose_mul kSE3 X0 z3 [X0; X1; X2] [p] f 3 =
    inr [tr_SE3_m3_c0 Rops X0 X1 X2 p; tr_SE3_m3_c1 Rops X0 X1 X2 p; tr_SE3_m3_c2 Rops X0 X1 X2 p] /\
  pose_mul kSO3 Y0 z3 [Y0; Y1] [p] f 3 = inr [tr_SO3_m2_c0 Rops Y0 Y1 p; tr_SO3_m2_c1 Rops Y0 Y1 p] /\
  pose_mul kSO3 Y0 z3 [Y0; Y1; Y2] [p] f 3 =
    inr [tr_SO3_m3_c0 Rops Y0 Y1 Y2 p; tr_SO3_m3_c1 Rops Y0 Y1 Y2 p; tr_SO3_m3_c2 Rops Y0 Y1 Y2 p].
Proof.
  intros X0 X1 X2 Y0 Y1 Y2 p f H0 H1 H2 Hf. unfold kSE3, kSO3, pose_mul, dispatch. simpl length. rewrite Hf.
  cbn [Nat.eqb Nat.ltb Nat.leb andb cols map seq fst snd nth].
  repeat split; list_eq; try (revert H0 H1 H2; gen_field); gen_ring.
Qed.
Print Assumptions C06_multi_is_model_3D.

Theorem C06_multi_is_model_2D : forall (X0 X1 X2 : M33 R) (Y0 Y1 Y2 : M22 R) (p : V2 R) (f : form),
  hom3 X0 -> hom3 X1 -> hom3 X2 -> isvector f 2 = true ->
  pose_mul kSE2 X0 z2 [X0; X1] [p] f 2 = inr [tr_SE2_m2_c0 Rops X0 X1 p; tr_SE2_m2_c1 Rops X0 X1 p] /\
  pose_mul kSE2 X0 z2 [X0; X1; X2] [p] f 2 =
    inr [tr_SE2_m3_c0 Rops X0 X1 X2 p; tr_SE2_m3_c1 Rops X0 X1 X2 p; tr_SE2_m3_c2 Rops X0 X1 X2 p] /\
  pose_mul kSO2 Y0 z2 [Y0; Y1] [p] f 2 = inr [tr_SO2_m2_c0 Rops Y0 Y1 p; tr_SO2_m2_c1 Rops Y0 Y1 p] /\
  pose_mul kSO2 Y0 z2 [Y0; Y1; Y2] [p] f 2 =
    inr [tr_SO2_m3_c0 Rops Y0 Y1 Y2 p; tr_SO2_m3_c1 Rops Y0 Y1 Y2 p; tr_SO2_m3_c2 Rops Y0 Y1 Y2 p].
Proof.
  intros X0 X1 X2 Y0 Y1 Y2 p f H0 H1 H2 Hf. unfold kSE2, kSO2, pose_mul, dispatch. simpl length. rewrite Hf.
  cbn [Nat.eqb Nat.ltb Nat.leb andb cols map seq fst snd nth].
  repeat split; list_eq; try (revert H0 H1 H2; gen_field); gen_ring.
Qed.
Print Assumptions C06_multi_is_model_2D.

Theorem C06_UQ_multi_columns : forall (q r : V4 R) (p : V3 R),
  tr_UQ_m2_c0 Rops q r p = kUQ q p /\ tr_UQ_m2_c1 Rops q r p = kUQ r p.
Proof. intros; unfold kUQ; split; gen_ring. Qed.
Print Assumptions C06_UQ_multi_columns.

(* every N >= 1: column j of X * P is R p_j + t, i.e. X applied to column j alone (N separate calls) *)
Theorem C06_columnwise_SE3 : forall (X : M44 R) (pts : list (V3 R)), hom4 X -> (1 <= length pts)%nat ->
  exists l, pose_mul kSE3 X z3 [X] pts (FArr2 3 (length pts)) 3 = inr l /\ length l = length pts /\
    forall j, (j < length pts)%nat ->
      nth j l z3 = act3 X (nth j pts z3) /\
      pose_mul kSE3 X z3 [X] [nth j pts z3] (FArr2 3 1) 3 = inr [nth j l z3].
Proof.
  intros X pts H HN. apply (pose_mul_columnwise_spec kSE3 X z3 act3); [|lia|exact HN].
  intros p. now apply kSE3_point.
Qed.
Print Assumptions C06_columnwise_SE3.

Theorem C06_columnwise_SO3 : forall (X : M33 R) (pts : list (V3 R)), (1 <= length pts)%nat ->
  exists l, pose_mul kSO3 X z3 [X] pts (FArr2 3 (length pts)) 3 = inr l /\ length l = length pts /\
    forall j, (j < length pts)%nat ->
      nth j l z3 = mv33 Rops X (nth j pts z3) /\
      pose_mul kSO3 X z3 [X] [nth j pts z3] (FArr2 3 1) 3 = inr [nth j l z3].
Proof.
  intros X pts HN. apply (pose_mul_columnwise_spec kSO3 X z3 (mv33 Rops)); [|lia|exact HN].
  intros p. apply kSO3_point.
Qed.
Print Assumptions C06_columnwise_SO3.

Theorem C06_columnwise_SE2 : forall (X : M33 R) (pts : list (V2 R)), hom3 X -> (1 <= length pts)%nat ->
  exists l, pose_mul kSE2 X z2 [X] pts (FArr2 2 (length pts)) 2 = inr l /\ length l = length pts /\
    forall j, (j < length pts)%nat ->
      nth j l z2 = act2 X (nth j pts z2) /\
      pose_mul kSE2 X z2 [X] [nth j pts z2] (FArr2 2 1) 2 = inr [nth j l z2].
Proof.
  intros X pts H HN. apply (pose_mul_columnwise_spec kSE2 X z2 act2); [|lia|exact HN].
  intros p. now apply kSE2_point.
Qed.
Print Assumptions C06_columnwise_SE2.

Theorem C06_columnwise_SO2 : forall (X : M22 R) (pts : list (V2 R)), (1 <= length pts)%nat ->
  exists l, pose_mul kSO2 X z2 [X] pts (FArr2 2 (length pts)) 2 = inr l /\ length l = length pts /\
    forall j, (j < length pts)%nat ->
      nth j l z2 = mv22 Rops X (nth j pts z2) /\
      pose_mul kSO2 X z2 [X] [nth j pts z2] (FArr2 2 1) 2 = inr [nth j l z2].
Proof.
  intros X pts HN. apply (pose_mul_columnwise_spec kSO2 X z2 (mv22 Rops)); [|lia|exact HN].
  intros p. apply kSO2_point.
Qed.
Print Assumptions C06_columnwise_SO2.

(* every length >= 2: a multi-valued pose applied to one point (in any vector form) gives one column per pose value *)
Theorem C06_multi_valued_SE3 : forall (poses : list (M44 R)) (p : V3 R) (f : form) (dX : M44 R),
  (2 <= length poses)%nat -> isvector f 3 = true -> (forall X, In X poses -> hom4 X) ->
  exists l, pose_mul kSE3 dX z3 poses [p] f 3 = inr l /\ length l = length poses /\
    forall i, (i < length poses)%nat -> nth i l z3 = act3 (nth i poses dX) p.
Proof.
  intros poses p f dX HL Hf Hh. apply (pose_mul_multi_spec kSE3 dX z3 act3); [|exact HL|exact Hf].
  intros X HX. now apply kSE3_point, Hh.
Qed.
Print Assumptions C06_multi_valued_SE3.

Theorem C06_multi_valued_SE2 : forall (poses : list (M33 R)) (p : V2 R) (f : form) (dX : M33 R),
  (2 <= length poses)%nat -> isvector f 2 = true -> (forall X, In X poses -> hom3 X) ->
  exists l, pose_mul kSE2 dX z2 poses [p] f 2 = inr l /\ length l = length poses /\
    forall i, (i < length poses)%nat -> nth i l z2 = act2 (nth i poses dX) p.
Proof.
  intros poses p f dX HL Hf Hh. apply (pose_mul_multi_spec kSE2 dX z2 act2); [|exact HL|exact Hf].
  intros X HX. now apply kSE2_point, Hh.
Qed.
Print Assumptions C06_multi_valued_SE2.

Theorem C06_multi_valued_SO : forall (R3 : list (M33 R)) (R2 : list (M22 R)) (p : V3 R) (p2 : V2 R) (f g : form) d3 d2,
  (2 <= length R3)%nat -> (2 <= length R2)%nat -> isvector f 3 = true -> isvector g 2 = true ->
  (exists l, pose_mul kSO3 d3 z3 R3 [p] f 3 = inr l /\ length l = length R3 /\
     forall i, (i < length R3)%nat -> nth i l z3 = mv33 Rops (nth i R3 d3) p) /\
  (exists l, pose_mul kSO2 d2 z2 R2 [p2] g 2 = inr l /\ length l = length R2 /\
     forall i, (i < length R2)%nat -> nth i l z2 = mv22 Rops (nth i R2 d2) p2).
Proof.
  intros R3 R2 p p2 f g d3 d2 H3 H2 Hf Hg. split.
  - apply (pose_mul_multi_spec kSO3 d3 z3 (mv33 Rops)); [|exact H3|exact Hf]. intros X _. apply kSO3_point.
  - apply (pose_mul_multi_spec kSO2 d2 z2 (mv22 Rops)); [|exact H2|exact Hg]. intros X _. apply kSO2_point.
Qed.
Print Assumptions C06_multi_valued_SO.

(* the way the point is written does not matter: list, tuple, 1-D array, row, column all take the same branch *)
Theorem C06_form_independent : forall (len dim : nat) (f g : form), (1 <= len)%nat ->
  isvector f dim = true -> isvector g dim = true -> dispatch len dim f = dispatch len dim g.
Proof. exact dispatch_form_independent. Qed.
Print Assumptions C06_form_independent.

Example C06_vector_forms : forall d, isvector (FList d) d = true /\ isvector (FTuple d) d = true /\
  isvector (FArr1 d) d = true /\ isvector (FArr2 1 d) d = true /\ isvector (FArr2 d 1) d = true.
Proof. intros d. simpl. rewrite !Nat.eqb_refl. simpl. rewrite Bool.orb_true_r. repeat split; reflexivity. Qed.

(* N = dim is not special: a d x d array of points is not mistaken for a vector or for a pose matrix *)
Example C06_N_equals_dim : dispatch 1 3 (FArr2 3 3) = inr {| shape := [3; 3]; cols := [(0, 0); (0, 1); (0, 2)] |}%nat /\
  dispatch 1 2 (FArr2 2 2) = inr {| shape := [2; 2]; cols := [(0, 0); (0, 1)] |}%nat.
Proof. split; reflexivity. Qed.

(* wrong sizes are rejected *)
Theorem C06_wrong_length_rejected : forall (len dim n : nat), (1 <= len)%nat -> n <> dim ->
  dispatch len dim (FList n) = inl ValueError /\ dispatch len dim (FTuple n) = inl ValueError /\
  dispatch len dim (FArr1 n) = inl ValueError.
Proof. exact dispatch_wrong_length. Qed.
Print Assumptions C06_wrong_length_rejected.

(* result shapes of the model, for every operand form:
   one pose x any vector form -> the d x 1 column; one pose x d x N -> d x N; a pose with M >= 2 values x any vector form
   -> d x M; a pose with M >= 2 values x d x M -> d x M.  (The property states the columnwise / one-column-per-value
   shapes; the d x 1 column for a single vector is what the code does and what the repository's tests expect.) *)
Theorem C06_result_shapes : forall (dim len N : nat) (f : form), (2 <= dim)%nat -> (1 <= N)%nat -> (2 <= len)%nat ->
  isvector f dim = true ->
  (exists r, dispatch 1 dim f = inr r /\ shape r = [dim; 1%nat] /\ cols r = [(0, 0)]%nat) /\
  (exists r, dispatch 1 dim (FArr2 dim N) = inr r /\ shape r = [dim; N] /\ length (cols r) = N) /\
  (exists r, dispatch len dim f = inr r /\ shape r = [dim; len] /\ length (cols r) = len) /\
  (exists r, dispatch len dim (FArr2 dim len) = inr r /\ shape r = [dim; len] /\ length (cols r) = len).
Proof.
  intros dim len N f Hd HN Hl Hf.
  rewrite (dispatch_vector 1 dim f), (dispatch_vector len dim f), dispatch_single_array, dispatch_multi_array, Nat.eqb_refl
    by (assumption || lia).
  repeat split; eexists; (split; [reflexivity|]); cbn [shape cols]; rewrite ?map_length, ?seq_length; split; reflexivity.
Qed.
Print Assumptions C06_result_shapes.

(* multi-valued pose x d x N array (N >= 2):
   (since fix 86fcbcb; before it the N = len branch raised AttributeError)
   pose i is applied to column i when N = len(pose); every other N is rejected with the documented ValueError *)
Theorem C06_multi_array : forall len dim N : nat, (2 <= dim)%nat -> (2 <= len)%nat -> (2 <= N)%nat ->
  dispatch len dim (FArr2 dim N) =
    if (len =? N)%nat then inr {| shape := [dim; len]; cols := map (fun i => (i, i)) (seq 0 len) |} else inl ValueError.
Proof. exact dispatch_multi_array. Qed.
Print Assumptions C06_multi_array.

(* tie: the traced two-valued pose x (d x 2) array is the model with the traced one-point kernel *)
Theorem C06_multi_array_is_model : forall (X0 X1 : M44 R) (Y0 Y1 : M33 R) (Z0 Z1 : M33 R) (W0 W1 : M22 R) (p0 p1 : V3 R) (u0 u1 : V2 R),
  hom4 X0 -> hom4 X1 -> hom3 Z0 -> hom3 Z1 ->
  pose_mul kSE3 X0 z3 [X0; X1] [p0; p1] (FArr2 3 2) 3 = inr [tr_SE3_ma2_c0 Rops X0 X1 p0 p1; tr_SE3_ma2_c1 Rops X0 X1 p0 p1] /\
  pose_mul kSO3 Y0 z3 [Y0; Y1] [p0; p1] (FArr2 3 2) 3 = inr [tr_SO3_ma2_c0 Rops Y0 Y1 p0 p1; tr_SO3_ma2_c1 Rops Y0 Y1 p0 p1] /\
  pose_mul kSE2 Z0 z2 [Z0; Z1] [u0; u1] (FArr2 2 2) 2 = inr [tr_SE2_ma2_c0 Rops Z0 Z1 u0 u1; tr_SE2_ma2_c1 Rops Z0 Z1 u0 u1] /\
  pose_mul kSO2 W0 z2 [W0; W1] [u0; u1] (FArr2 2 2) 2 = inr [tr_SO2_ma2_c0 Rops W0 W1 u0 u1; tr_SO2_ma2_c1 Rops W0 W1 u0 u1].
Proof.
  intros X0 X1 Y0 Y1 Z0 Z1 W0 W1 p0 p1 u0 u1 H0 H1 H2 H3. unfold kSE3, kSO3, kSE2, kSO2, pose_mul. simpl length.
  vm_compute dispatch. cbn [cols map seq fst snd nth].
  repeat split; list_eq; try (revert H0 H1 H2 H3; gen_field); gen_ring.
Qed.
Print Assumptions C06_multi_array_is_model.

(* every length >= 2: column i of X * P is X[i] applied to column i, = R_i p_i + t_i *)
Theorem C06_multi_array_SE3 : forall (poses : list (M44 R)) (pts : list (V3 R)) (dX : M44 R),
  (2 <= length poses)%nat -> length pts = length poses -> (forall X, In X poses -> hom4 X) ->
  exists l, pose_mul kSE3 dX z3 poses pts (FArr2 3 (length pts)) 3 = inr l /\ length l = length poses /\
    forall i, (i < length poses)%nat -> nth i l z3 = act3 (nth i poses dX) (nth i pts z3).
Proof.
  intros poses pts dX HL HE Hh. apply (pose_mul_elementwise_spec kSE3 dX z3 act3); [|lia|exact HL|exact HE].
  intros X p HX. now apply kSE3_point, Hh.
Qed.
Print Assumptions C06_multi_array_SE3.

Theorem C06_multi_array_SE2 : forall (poses : list (M33 R)) (pts : list (V2 R)) (dX : M33 R),
  (2 <= length poses)%nat -> length pts = length poses -> (forall X, In X poses -> hom3 X) ->
  exists l, pose_mul kSE2 dX z2 poses pts (FArr2 2 (length pts)) 2 = inr l /\ length l = length poses /\
    forall i, (i < length poses)%nat -> nth i l z2 = act2 (nth i poses dX) (nth i pts z2).
Proof.
  intros poses pts dX HL HE Hh. apply (pose_mul_elementwise_spec kSE2 dX z2 act2); [|lia|exact HL|exact HE].
  intros X p HX. now apply kSE2_point, Hh.
Qed.
Print Assumptions C06_multi_array_SE2.

Theorem C06_multi_array_SO : forall (R3 : list (M33 R)) (R2 : list (M22 R)) (P3 : list (V3 R)) (P2 : list (V2 R)) d3 d2,
  (2 <= length R3)%nat -> (2 <= length R2)%nat -> length P3 = length R3 -> length P2 = length R2 ->
  (exists l, pose_mul kSO3 d3 z3 R3 P3 (FArr2 3 (length P3)) 3 = inr l /\ length l = length R3 /\
     forall i, (i < length R3)%nat -> nth i l z3 = mv33 Rops (nth i R3 d3) (nth i P3 z3)) /\
  (exists l, pose_mul kSO2 d2 z2 R2 P2 (FArr2 2 (length P2)) 2 = inr l /\ length l = length R2 /\
     forall i, (i < length R2)%nat -> nth i l z2 = mv22 Rops (nth i R2 d2) (nth i P2 z2)).
Proof.
  intros R3 R2 P3 P2 d3 d2 H3 H2 E3 E2. split.
  - apply (pose_mul_elementwise_spec kSO3 d3 z3 (mv33 Rops)); [|lia|exact H3|exact E3]. intros X p _. apply kSO3_point.
  - apply (pose_mul_elementwise_spec kSO2 d2 z2 (mv22 Rops)); [|lia|exact H2|exact E2]. intros X p _. apply kSO2_point.
Qed.
Print Assumptions C06_multi_array_SO.

(* non-vacuity *)
Example C06_dispatch_nonvacuous : hom4 ((1, 0, 0, 2), (0, 1, 0, 3), (0, 0, 1, 4), (0, 0, 0, 1)) /\
  pose_mul (fun (X : nat) (p : nat) => (X + p)%nat) 0%nat 0%nat [10; 20; 30]%nat [7%nat] (FTuple 3) 3 = inr [17; 27; 37]%nat /\
  pose_mul (fun (X : nat) (p : nat) => (X + p)%nat) 0%nat 0%nat [10%nat] [1; 2; 3; 4; 5]%nat (FArr2 3 5) 3 = inr [11; 12; 13; 14; 15]%nat /\
  pose_mul (fun (X : nat) (p : nat) => (X + p)%nat) 0%nat 0%nat [10; 20; 30; 40]%nat [1; 2; 3; 4]%nat (FArr2 3 4) 3 = inr [11; 22; 33; 44]%nat /\
  dispatch 4 3 (FArr2 3 5) = inl ValueError.
Proof. repeat split. Qed.
