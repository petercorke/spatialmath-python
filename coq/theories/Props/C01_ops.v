(* C01 -- closure under the group operators, and the lift to EVERY expression tree.
   tr_SO3_mul, tr_SE3_div, tr_SE3_inv, ... are traces of the operators executed THROUGH THE CLASSES
   (SO3.__mul__, SMPose.__truediv__, SE3.inv, __pow__) on arbitrary symbolic operands, regenerated on every run.
   closure_expr (Model/C01_Expr.v, induction on the expression) is instantiated with these traces:
   any depth, any integer exponent, any product length. *)
From Coq Require Import Reals ZArith Lra List.
Import ListNotations.
From SM Require Import Base.Ops Base.Lin Base.RInst Base.RLin Model.C01_Lemmas Model.C01_Expr.
From SMgen Require Import Traces_C01.
Open Scope R_scope.

Ltac same_tr := intros; destruct_tuples; unfold trinv_ref, trinv2_ref; gen_ring.

(* What the traced operators are (polynomial identities, ring).
   Closure is derived from these identities and the closure lemmas of Base/RLin.v.  Consequence: a change that makes an
   operator return a DIFFERENT group element (e.g. inv without the transpose) breaks these lemmas although the result may
   still be a member; the check then reports the broken lemma with "no-failing-input-found" (the law itself is C02's). *)
Lemma C01_SO3_ops_are : forall X Y : M33 R,
  tr_SO3_mul Rops X Y = mmul33 Rops X Y /\ tr_SO3_inv Rops X = mtr33 X /\ tr_SO3_div Rops X Y = mmul33 Rops X (mtr33 Y).
Proof. intros; repeat split; same_tr. Qed.
Lemma C01_SE3_ops_are : forall X Y : M44 R,
  tr_SE3_mul Rops X Y = mmul44 Rops X Y /\ tr_SE3_inv Rops X = trinv_ref X /\ tr_trinv Rops X = trinv_ref X.
Proof. intros; repeat split; same_tr. Qed.
(* X / Y is computed as X @ Y.inv(); on homogeneous operands this is the matrix product with the structured inverse *)
Lemma C01_SE3_div_is : forall X Y : M44 R, lastrow4 X = (0,0,0,1) -> tr_SE3_div Rops X Y = mmul44 Rops X (trinv_ref Y).
Proof. intros X Y H. destruct_tuples. unfold lastrow4 in H. injection H; intros; subst. same_tr. Qed.
(* SO2.inv / SE2.inv / "/" are traceable since fix 1c511ed (check=False) *)
Lemma C01_SO2_ops_are : forall X Y : M22 R,
  tr_SO2_mul Rops X Y = mmul22 Rops X Y /\ tr_SO2_inv Rops X = mtr22 X /\ tr_SO2_div Rops X Y = mmul22 Rops X (mtr22 Y).
Proof. intros; repeat split; same_tr. Qed.
Lemma C01_SO2_mul_is : forall X Y : M22 R, tr_SO2_mul Rops X Y = mmul22 Rops X Y.
Proof. intros. apply C01_SO2_ops_are. Qed.
Lemma C01_SE2_ops_are : forall X Y : M33 R,
  tr_SE2_mul Rops X Y = mmul33 Rops X Y /\ tr_SE2_inv Rops X = trinv2_ref X /\ tr_trinv2 Rops X = trinv2_ref X.
Proof. intros; repeat split; same_tr. Qed.
Lemma C01_SE2_div_is : forall X Y : M33 R, lastrow3 X = (0,0,1) -> tr_SE2_div Rops X Y = mmul33 Rops X (trinv2_ref Y).
Proof. intros X Y H. destruct_tuples. unfold lastrow3 in H. injection H; intros; subst. same_tr. Qed.

Lemma C01_SO3_closed : forall X Y, SO3 X -> SO3 Y ->
  SO3 (tr_SO3_mul Rops X Y) /\ SO3 (tr_SO3_div Rops X Y) /\ SO3 (tr_SO3_inv Rops X).
Proof.
  intros X Y HX HY. destruct (C01_SO3_ops_are X Y) as (-> & -> & ->).
  conjs; [ apply SO3_mul | apply SO3_mul; [|apply SO3_tr] | apply SO3_tr ]; assumption.
Qed.
Lemma C01_SE3_closed : forall X Y, SE3 X -> SE3 Y ->
  SE3 (tr_SE3_mul Rops X Y) /\ SE3 (tr_SE3_div Rops X Y) /\ SE3 (tr_SE3_inv Rops X) /\ SE3 (tr_trinv Rops X).
Proof.
  intros X Y HX HY. destruct (C01_SE3_ops_are X Y) as (-> & -> & ->).
  rewrite (C01_SE3_div_is X Y) by apply HX.
  conjs; try apply SE3_mul; try apply SE3_inv; assumption.
Qed.
Lemma C01_SO2_closed : forall X Y, SO2 X -> SO2 Y ->
  SO2 (tr_SO2_mul Rops X Y) /\ SO2 (tr_SO2_div Rops X Y) /\ SO2 (tr_SO2_inv Rops X).
Proof.
  intros X Y HX HY. destruct (C01_SO2_ops_are X Y) as (-> & -> & ->).
  conjs; [ apply SO2_mul | apply SO2_mul; [|apply SO2_tr] | apply SO2_tr ]; assumption.
Qed.
Lemma C01_SE2_closed : forall A B, SE2 A -> SE2 B ->
  SE2 (tr_SE2_mul Rops A B) /\ SE2 (tr_SE2_div Rops A B) /\ SE2 (tr_SE2_inv Rops A) /\ SE2 (tr_trinv2 Rops A).
Proof.
  intros A B HA HB. destruct (C01_SE2_ops_are A B) as (-> & -> & ->).
  rewrite (C01_SE2_div_is A B) by apply HA.
  conjs; try apply SE2_mul; try apply SE2_inv; assumption.
Qed.

(* Integer powers through the class.
   The code computes X ** n as matrix_power(x, n) for n >= 0 and as X.inv() ** (-n) for n < 0 (fix fbf47d0): pow_Z of
   the model.  The powers of the traced operators are the powers of the matrix operations. *)
Lemma C01_SO3_pow_Z : forall X n,
  pow_Z (I33 Rops) (tr_SO3_mul Rops) (tr_SO3_inv Rops) X n = pow_Z (I33 Rops) (mmul33 Rops) mtr33 X n.
Proof. intros. apply pow_Z_ext; [ intros a b; apply (C01_SO3_ops_are a b) | intros a; apply (C01_SO3_ops_are a a) ]. Qed.
Lemma C01_SE3_pow_Z : forall X n,
  pow_Z (I44 Rops) (tr_SE3_mul Rops) (tr_SE3_inv Rops) X n = pow_Z (I44 Rops) (mmul44 Rops) trinv_ref X n.
Proof. intros. apply pow_Z_ext; [ intros a b; apply (C01_SE3_ops_are a b) | intros a; apply (C01_SE3_ops_are a a) ]. Qed.
Lemma C01_SO2_pow_Z : forall X n,
  pow_Z (I22 Rops) (tr_SO2_mul Rops) (tr_SO2_inv Rops) X n = pow_Z (I22 Rops) (mmul22 Rops) mtr22 X n.
Proof. intros. apply pow_Z_ext; [ intros a b; apply (C01_SO2_ops_are a b) | intros a; apply (C01_SO2_ops_are a a) ]. Qed.
Lemma C01_SE2_pow_Z : forall X n,
  pow_Z (I33 Rops) (tr_SE2_mul Rops) (tr_SE2_inv Rops) X n = pow_Z (I33 Rops) (mmul33 Rops) trinv2_ref X n.
Proof. intros. apply pow_Z_ext; [ intros a b; apply (C01_SE2_ops_are a b) | intros a; apply (C01_SE2_ops_are a a) ]. Qed.

(* pow_Z at a literal exponent, as the iterated product *)
Ltac pow_Z_literal := cbv beta iota delta [pow_Z pow_nat Z.ltb Z.compare Z.abs_nat Pos.to_nat Pos.iter_op Init.Nat.add].

(* traced through the classes: X ** n for n = 0..3 is the iterated product of the model *)
Lemma C01_pow_is_iterated : forall (X : M33 R) (Y : M44 R),
  (tr_SO3_pow0 Rops X = pow_Z (I33 Rops) (tr_SO3_mul Rops) (tr_SO3_inv Rops) X 0 /\
   tr_SO3_pow1 Rops X = pow_Z (I33 Rops) (tr_SO3_mul Rops) (tr_SO3_inv Rops) X 1 /\
   tr_SO3_pow2 Rops X = pow_Z (I33 Rops) (tr_SO3_mul Rops) (tr_SO3_inv Rops) X 2 /\
   tr_SO3_pow3 Rops X = pow_Z (I33 Rops) (tr_SO3_mul Rops) (tr_SO3_inv Rops) X 3) /\
  (tr_SE3_pow0 Rops Y = pow_Z (I44 Rops) (tr_SE3_mul Rops) (tr_SE3_inv Rops) Y 0 /\
   tr_SE3_pow1 Rops Y = pow_Z (I44 Rops) (tr_SE3_mul Rops) (tr_SE3_inv Rops) Y 1 /\
   tr_SE3_pow2 Rops Y = pow_Z (I44 Rops) (tr_SE3_mul Rops) (tr_SE3_inv Rops) Y 2 /\
   tr_SE3_pow3 Rops Y = pow_Z (I44 Rops) (tr_SE3_mul Rops) (tr_SE3_inv Rops) Y 3).
Proof.
  intros. rewrite !C01_SO3_pow_Z, !C01_SE3_pow_Z. pow_Z_literal. rewrite mmul33_I_l, mmul44_I_l.
  conjs; same_tr.
Qed.
(* and for n = -1, -2, -3 (-2 in 2-D) the iterated product of the traced closed-form inverse *)
Lemma C01_negpow_is_inv_then_pow : forall (X : M33 R) (Y : M44 R) (P : M22 R) (E : M33 R),
  (tr_SO3_powm1 Rops X = pow_Z (I33 Rops) (tr_SO3_mul Rops) (tr_SO3_inv Rops) X (-1) /\
   tr_SO3_powm2 Rops X = pow_Z (I33 Rops) (tr_SO3_mul Rops) (tr_SO3_inv Rops) X (-2) /\
   tr_SO3_powm3 Rops X = pow_Z (I33 Rops) (tr_SO3_mul Rops) (tr_SO3_inv Rops) X (-3)) /\
  (tr_SE3_powm1 Rops Y = pow_Z (I44 Rops) (tr_SE3_mul Rops) (tr_SE3_inv Rops) Y (-1) /\
   tr_SE3_powm2 Rops Y = pow_Z (I44 Rops) (tr_SE3_mul Rops) (tr_SE3_inv Rops) Y (-2) /\
   tr_SE3_powm3 Rops Y = pow_Z (I44 Rops) (tr_SE3_mul Rops) (tr_SE3_inv Rops) Y (-3)) /\
  tr_SO2_powm2 Rops P = pow_Z (I22 Rops) (tr_SO2_mul Rops) (tr_SO2_inv Rops) P (-2) /\
  tr_SE2_powm2 Rops E = pow_Z (I33 Rops) (tr_SE2_mul Rops) (tr_SE2_inv Rops) E (-2).
Proof.
  intros. rewrite !C01_SO3_pow_Z, !C01_SE3_pow_Z, C01_SO2_pow_Z, C01_SE2_pow_Z. pow_Z_literal.
  rewrite !mmul33_I_l, mmul44_I_l, mmul22_I_l. unfold trinv_ref. rewrite !mmul44_rt.
  conjs; same_tr.
Qed.

(* the augmented assignments X *= Y, X /= Y (executed through the classes) compute the binary operators, so they inherit closure *)
Lemma C01_inplace_are_binary : forall (X Y : M33 R) (A B : M44 R) (P Q : M22 R) (E F : M33 R),
  tr_SO3_imul Rops X Y = tr_SO3_mul Rops X Y /\ tr_SO3_idiv Rops X Y = tr_SO3_div Rops X Y /\
  tr_SE3_imul Rops A B = tr_SE3_mul Rops A B /\ tr_SE3_idiv Rops A B = tr_SE3_div Rops A B /\
  tr_SO2_imul Rops P Q = tr_SO2_mul Rops P Q /\
  tr_SE2_imul Rops E F = tr_SE2_mul Rops E F /\ tr_SE2_idiv Rops E F = tr_SE2_div Rops E F.
Proof. intros. repeat split; same_tr. Qed.
Lemma C01_inplace_closed : forall (X Y : M33 R) (A B : M44 R) (P Q : M22 R) (E F : M33 R),
  (SO3 X -> SO3 Y -> SO3 (tr_SO3_imul Rops X Y) /\ SO3 (tr_SO3_idiv Rops X Y)) /\
  (SE3 A -> SE3 B -> SE3 (tr_SE3_imul Rops A B) /\ SE3 (tr_SE3_idiv Rops A B)) /\
  (SO2 P -> SO2 Q -> SO2 (tr_SO2_imul Rops P Q)) /\
  (SE2 E -> SE2 F -> SE2 (tr_SE2_imul Rops E F) /\ SE2 (tr_SE2_idiv Rops E F)).
Proof.
  intros. destruct (C01_inplace_are_binary X Y A B P Q E F) as (-> & -> & -> & -> & -> & -> & ->).
  pose proof (C01_SO3_closed X Y). pose proof (C01_SE3_closed A B). pose proof (C01_SO2_closed P Q). pose proof (C01_SE2_closed E F). tauto.
Qed.

Theorem C01_operators_closed : forall (X Y : M33 R) (A B : M44 R) (P Q : M22 R) (E F : M33 R),
  (SO3 X -> SO3 Y -> SO3 (tr_SO3_mul Rops X Y) /\ SO3 (tr_SO3_div Rops X Y) /\ SO3 (tr_SO3_inv Rops X)) /\
  (SE3 A -> SE3 B -> SE3 (tr_SE3_mul Rops A B) /\ SE3 (tr_SE3_div Rops A B) /\ SE3 (tr_SE3_inv Rops A) /\ SE3 (tr_trinv Rops A)) /\
  (SO2 P -> SO2 Q -> SO2 (tr_SO2_mul Rops P Q) /\ SO2 (tr_SO2_div Rops P Q) /\ SO2 (tr_SO2_inv Rops P)) /\
  (SE2 E -> SE2 F -> SE2 (tr_SE2_mul Rops E F) /\ SE2 (tr_SE2_div Rops E F) /\ SE2 (tr_SE2_inv Rops E) /\ SE2 (tr_trinv2 Rops E)).
Proof.
  intros. pose proof (C01_SO3_closed X Y). pose proof (C01_SE3_closed A B). pose proof (C01_SO2_closed P Q). pose proof (C01_SE2_closed E F). tauto.
Qed.
Print Assumptions C01_operators_closed.
Example C01_operators_nonvacuous :
  SO3 (rotx_cs Rops (3/5) (4/5)) /\ SE3 (rt2tr3 Rops (rotz_cs Rops (5/13) (12/13)) (1, -2, 1000000)) /\ SO2 (rot2_cs Rops (3/5) (4/5)).
Proof. split; [ apply SO3_rotx; lra | split; [ apply SE3_rt; apply SO3_rotz; lra | apply SO2_rot2; lra ] ]. Qed.

(* every expression tree over valid leaves is valid *)
Definition evalSO3 := eval (I33 Rops) (tr_SO3_mul Rops) (tr_SO3_inv Rops).
Definition evalSE3 := eval (I44 Rops) (tr_SE3_mul Rops) (tr_SE3_inv Rops).
Definition evalUQ := eval (qone Rops) (tr_qqmul Rops) (tr_conj Rops).

Theorem C01_closure_expr_SO3 : forall (e : expr) (env : nat -> M33 R), (forall i, SO3 (env i)) -> SO3 (evalSO3 env e).
Proof.
  intros e env H. unfold evalSO3. apply closure_expr; try assumption.
  - apply SO3_I.
  - intros a b Ha Hb. apply (C01_SO3_closed a b Ha Hb).
  - intros a Ha. apply (C01_SO3_closed a a Ha Ha).
Qed.
Print Assumptions C01_closure_expr_SO3.

Theorem C01_closure_expr_SE3 : forall (e : expr) (env : nat -> M44 R), (forall i, SE3 (env i)) -> SE3 (evalSE3 env e).
Proof.
  intros e env H. unfold evalSE3. apply closure_expr; try assumption.
  - apply SE3_I.
  - intros a b Ha Hb. apply (C01_SE3_closed a b Ha Hb).
  - intros a Ha. apply (C01_SE3_closed a a Ha Ha).
Qed.
Print Assumptions C01_closure_expr_SE3.

(* every traced negative power of a member is a member: it is the value of the expression  Pow (Leaf 0) n *)
Lemma C01_negpow_closed : forall (X : M33 R) (Y : M44 R), SO3 X -> SE3 Y ->
  SO3 (tr_SO3_powm1 Rops X) /\ SO3 (tr_SO3_powm2 Rops X) /\ SO3 (tr_SO3_powm3 Rops X) /\
  SE3 (tr_SE3_powm1 Rops Y) /\ SE3 (tr_SE3_powm2 Rops Y) /\ SE3 (tr_SE3_powm3 Rops Y).
Proof.
  intros X Y HX HY. destruct (C01_negpow_is_inv_then_pow X Y (I22 Rops) (I33 Rops)) as ((-> & -> & ->) & (-> & -> & ->) & _).
  pose proof (fun n => C01_closure_expr_SO3 (Pow (Leaf 0) n) (fun _ => X) (fun _ => HX)) as S3.
  pose proof (fun n => C01_closure_expr_SE3 (Pow (Leaf 0) n) (fun _ => Y) (fun _ => HY)) as S4.
  conjs; first [ apply S3 | apply S4 ].
Qed.

(* 2-D groups (possible since SO2.inv / SE2.inv are traceable) *)
Definition evalSO2 := eval (I22 Rops) (tr_SO2_mul Rops) (tr_SO2_inv Rops).
Definition evalSE2 := eval (I33 Rops) (tr_SE2_mul Rops) (tr_SE2_inv Rops).
Theorem C01_closure_expr_SO2_SE2 : forall (e : expr) (env2 : nat -> M22 R) (env3 : nat -> M33 R),
  ((forall i, SO2 (env2 i)) -> SO2 (evalSO2 env2 e)) /\ ((forall i, SE2 (env3 i)) -> SE2 (evalSE2 env3 e)).
Proof.
  intros e env2 env3. split; intros H; [unfold evalSO2 | unfold evalSE2]; apply closure_expr; try assumption.
  - apply SO2_I.
  - intros a b Ha Hb. apply (C01_SO2_closed a b Ha Hb).
  - intros a Ha. apply (C01_SO2_closed a a Ha Ha).
  - apply SE2_I.
  - intros a b Ha Hb. apply (C01_SE2_closed a b Ha Hb).
  - intros a Ha. apply (C01_SE2_closed a a Ha Ha).
Qed.
Print Assumptions C01_closure_expr_SO2_SE2.

(* unit quaternions with the Hamilton-product and conjugate kernels (the class operators additionally re-normalise,
   see C01_unit_quaternion_operators) *)
Theorem C01_closure_expr_UnitQ : forall (e : expr) (env : nat -> V4 R), (forall i, UnitQ (env i)) -> UnitQ (evalUQ env e).
Proof.
  intros e env H. unfold evalUQ. apply closure_expr; try assumption.
  - apply UnitQ_one.
  - intros a b Ha Hb. destruct_tuples. gen_unfold. member_by (UnitQ_mul _ _ Ha Hb).
  - intros a Ha. destruct_tuples. gen_unfold. member_by (UnitQ_conj _ Ha).
Qed.
Print Assumptions C01_closure_expr_UnitQ.

(* non-vacuity: a concrete deep tree over concrete valid leaves, with a negative exponent and a sequence product *)
Example C01_closure_expr_nonvacuous :
  let env := fun i : nat => match i with O => rotx_cs Rops (3/5) (4/5) | _ => rotz_cs Rops (5/13) (12/13) end in
  let e := Pow (Mul (Leaf 0) (Div (Prod [Leaf 1; Inv (Leaf 0); Pow (Leaf 1) 7]) (Leaf 1))) (-8) in
  (forall i, SO3 (env i)) /\ depth e = 5%nat /\ SO3 (evalSO3 env e).
Proof.
  intros env e.
  assert (H : forall i, SO3 (env i)) by (intros [|i]; [ apply SO3_rotx | apply SO3_rotz ]; lra).
  split; [exact H|]. split; [reflexivity|]. apply C01_closure_expr_SO3. exact H.
Qed.
