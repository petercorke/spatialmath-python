(* C03 -- trexp solves the ODE that defines the matrix exponential (L-real, Coquelicot derivatives).
   For a unit twist S = (v, w), |w| = 1, Phi(theta) = trexp(S, theta) (the model's [trexp_unit]: rotation block Rodrigues,
   translation block V(theta) v) is differentiable entry by entry and
        d/dtheta Phi(theta) = [S] Phi(theta) = Phi(theta) [S],     Phi(0) = I,
   i.e. Phi solves the initial value problem whose unique solution is exp(theta [S]).  Uniqueness of solutions of a linear ODE
   is not in the library and is not used: that trexp IS the power series Sum_k (theta [S])^k / k! is proved directly in
   Props/C03_series.v, from the same normal form of the entries (P4, Model/C03_Ode.v and Model/C03_Series.v).
   [C03_thr] is regenerated from /repo's AST on every run. *)
From Coq Require Import Reals ZArith Lra Lia.
From Coquelicot Require Import Coquelicot.
From SM Require Import Base.Ops Base.Lin Base.RInst Base.RLin Model.C03_ExpLog Model.C03_Lemmas Model.C03_Ode Model.C03_Series.
From SMgen Require Import Consts_C03.
Open Scope R_scope.

Lemma C03_thr_ok' : thr_ok C03_thr.
Proof. unfold thr_ok, C03_thr. cbn. repeat split; lra. Qed.

(* se(3), all 16 entries: [is_derive_M44 F x D] is  forall i j < 4, is_derive (fun t => (F t)_ij) x D_ij *)
Theorem C03_trexp_solves_exp_ode : forall (v0 v1 v2 w0 w1 w2 th : R),
  normsq3 Rops (w0,w1,w2) = 1 ->
  let S := (v0,v1,v2,w0,w1,w2) in
  is_derive_M44 (fun t => trexp_unit Rops C03_thr S t) th (mmul44 Rops (se3_hat S) (trexp_unit Rops C03_thr S th)) /\
  mmul44 Rops (se3_hat S) (trexp_unit Rops C03_thr S th) = mmul44 Rops (trexp_unit Rops C03_thr S th) (se3_hat S) /\
  trexp_unit Rops C03_thr S 0 = I44 Rops.
Proof. intros v0 v1 v2 w0 w1 w2 th Hw S. exact (trexp_unit_solves_ode C03_thr v0 v1 v2 w0 w1 w2 th C03_thr_ok' Hw). Qed.
Print Assumptions C03_trexp_solves_exp_ode.

(* the so(3) block alone: d/dtheta R = [w]x R = R [w]x, R(0) = I *)
Theorem C03_trexp_solves_exp_ode_so3 : forall (u : V3 R) (th : R), normsq3 Rops u = 1 ->
  is_derive_M33 (fun t => rodrigues_th Rops u t) th (mmul33 Rops (skew3 Rops u) (rodrigues_th Rops u th)) /\
  mmul33 Rops (skew3 Rops u) (rodrigues_th Rops u th) = mmul33 Rops (rodrigues_th Rops u th) (skew3 Rops u) /\
  rodrigues_th Rops u 0 = I33 Rops.
Proof. intros u th Hu. exact (rodrigues_solves_ode u th Hu). Qed.
Print Assumptions C03_trexp_solves_exp_ode_so3.

(* 2-D: trexp2(S, theta) on a unit twist S = (t0, t1, w), w = +-1 *)
Theorem C03_trexp_solves_exp_ode_2d : forall (t0 t1 w th : R), w*w = 1 ->
  let S := (t0,t1,w) in
  is_derive_M33 (fun t => trexp2_unit Rops C03_thr S t) th (mmul33 Rops (se2_hat S) (trexp2_unit Rops C03_thr S th)) /\
  mmul33 Rops (se2_hat S) (trexp2_unit Rops C03_thr S th) = mmul33 Rops (trexp2_unit Rops C03_thr S th) (se2_hat S) /\
  trexp2_unit Rops C03_thr S 0 = I33 Rops.
Proof. intros t0 t1 w th Hw S. exact (trexp2_unit_solves_ode C03_thr t0 t1 w th C03_thr_ok' Hw). Qed.
Print Assumptions C03_trexp_solves_exp_ode_2d.

(* non-vacuity: a unit axis; and one entry spelled out -- the (0,1) entry of R(t) about z is -sin t, with derivative -cos th *)
Example C03_trexp_solves_exp_ode_nonvacuous :
  normsq3 Rops (0, 3/5, 4/5) = 1 /\ (-1)*(-1) = 1 /\
  forall th, is_derive (fun t => e33 (rodrigues_th Rops (0,0,1) t) 0 1) th (- cos th).
Proof.
  split; [autounfold with smlin; sm_simpl; field|]. split; [ring|]. intros th.
  assert (Hu : normsq3 Rops (0,0,1) = 1) by (autounfold with smlin; sm_simpl; ring).
  destruct (C03_trexp_solves_exp_ode_so3 (0,0,1) th Hu) as [D _].
  specialize (D 0%nat 1%nat ltac:(lia) ltac:(lia)).
  replace (- cos th) with (e33 (mmul33 Rops (skew3 Rops (0,0,1)) (rodrigues_th Rops (0,0,1) th)) 0 1); [exact D|].
  unfold rodrigues_th. autounfold with c03 smlin. sm_simpl. cbn [e33]. ring.
Qed.
