(* C16 (e) -- simplify() on generic symbolic / mixed pose values, and pose OP scalar with a symbolic / mixed scalar.
   simplify() must be the identity on VALUES (in particular it must keep a non-zero translation); on a matrix of plain
   symbols it must return the matrix itself (conversion, abstract ops record).
   pose * s, s * pose, pose / s, pose + s, s + pose, pose - s, s - pose with a SymPy scalar s act elementwise on the matrix
   exactly as with a numeric scalar ("accepts the same call forms as the numeric path"). *)
From Coq Require Import Reals ZArith Lra List.
From SM Require Import Base.Ops Base.Lin Base.RInst Base.RLin Model.C16_struct Model.C16_ref Model.C16_open.
From SMgen Require Import Traces_C16.
Import ListNotations.
Open Scope R_scope.

Ltac gen_field := ref_unfold; tuple_eq ltac:(field; assumption).

Theorem C16_simplify_generic_identity : forall (T : Type) (O : ops T) (X Y : M44 T) (E F : M33 T) (Rm : M33 T) (A : M22 T),
  tr_simplify_SE3 O X = as_pose4 O X /\ tr_simplify_SE3_seq O X Y = as_pose4 O Y /\
  tr_simplify_SE2 O E = as_pose3 O E /\ tr_simplify_SE2_seq O E F = as_pose3 O F /\
  tr_simplify_SO3 O Rm = Rm /\ tr_simplify_SO2 O A = A /\
  (* in particular the translation survives *)
  transl3 (tr_simplify_SE3 O X) = transl3 X /\ transl2 (tr_simplify_SE2 O E) = transl2 E.
Proof. intros; destruct_tuples; repeat split; reflexivity. Qed.
Print Assumptions C16_simplify_generic_identity.

Theorem C16_simplify_mixed_value : forall a x z : R,
  tr_simplify_Rx_t Rops a x z = tr_SE3_Rx_t Rops a (x,2,z).
Proof. ref_ring. Qed.
Print Assumptions C16_simplify_mixed_value.

Theorem C16_simplify_mixed_structural : forall (T : Type) (O : ops T) (a x z : T),
  matches O (hom44 pat_rotx txxx) (fl44 (tr_simplify_Rx_t O a x z)) /\
  (let '(t0,_,t2) := transl3 (tr_simplify_Rx_t O a x z) in (t0,t2)) = (x,z).
Proof. intros; repeat split; reflexivity. Qed.
Print Assumptions C16_simplify_mixed_structural.

Theorem C16_SE3_scalar_value : forall (X : M44 R) (s : R),
  tr_SE3_smul Rops X s = mmap44 (fun x => x * s) (as_pose4 Rops X) /\
  tr_SE3_srmul Rops X s = mmap44 (fun x => s * x) (as_pose4 Rops X) /\
  tr_SE3_sadd Rops X s = mmap44 (fun x => x + s) (as_pose4 Rops X) /\
  tr_SE3_sradd Rops X s = mmap44 (fun x => s + x) (as_pose4 Rops X) /\
  tr_SE3_ssub Rops X s = mmap44 (fun x => x - s) (as_pose4 Rops X) /\
  tr_SE3_srsub Rops X s = mmap44 (fun x => s - x) (as_pose4 Rops X).
Proof. intros; repeat split; ref_ring. Qed.
Print Assumptions C16_SE3_scalar_value.

Theorem C16_SE3_scalar_div_value : forall (X : M44 R) (s : R), s <> 0 ->
  tr_SE3_sdiv Rops X s = mmap44 (fun x => x / s) (as_pose4 Rops X).
Proof. intros X s Hs. gen_field. Qed.
Print Assumptions C16_SE3_scalar_div_value.
Example C16_scalar_div_nonvacuous : (2 : R) <> 0. Proof. lra. Qed.

(* scaling keeps the structural zeros of the last row; s*X is the same array as X*s *)
Theorem C16_SE3_scalar_structural : forall (T : Type) (O : ops T) (X : M44 T) (s : T),
  matches O [Px;Px;Px;Px; Px;Px;Px;Px; Px;Px;Px;Px; P0;P0;P0;Px] (fl44 (tr_SE3_smul O X s)) /\
  matches O [Px;Px;Px;Px; Px;Px;Px;Px; Px;Px;Px;Px; P0;P0;P0;Px] (fl44 (tr_SE3_sdiv O X s)) /\
  tr_SE3_srmul O X s = tr_SE3_smul O X s /\ tr_SE3_sradd O X s = tr_SE3_sadd O X s /\
  lastrow4 (tr_SE3_smul O X s) = (zero O, zero O, zero O, s).
Proof. intros; destruct_tuples; repeat split; reflexivity. Qed.
Print Assumptions C16_SE3_scalar_structural.

(* mixed: numeric scalar / symbolic pose, expression scalar, sequence, numeric pose / symbolic scalar *)
Theorem C16_SE3_scalar_mixed : forall (X Y : M44 R) (s : R),
  tr_SE3_smul_05 Rops X = tr_SE3_smul Rops X (1/2) /\ tr_SE3_srmul_05 Rops X = tr_SE3_srmul Rops X (1/2) /\
  tr_SE3_sdiv_05 Rops X = tr_SE3_sdiv Rops X (1/2) /\
  tr_SE3_sadd_05 Rops X = tr_SE3_sadd Rops X (1/2) /\ tr_SE3_sradd_05 Rops X = tr_SE3_sradd Rops X (1/2) /\
  tr_SE3_ssub_05 Rops X = tr_SE3_ssub Rops X (1/2) /\ tr_SE3_srsub_05 Rops X = tr_SE3_srsub Rops X (1/2) /\
  tr_SE3_smul_expr Rops X s = tr_SE3_smul Rops X (s + 1) /\
  tr_SE3_smul_seq Rops X Y s = tr_SE3_smul Rops Y s /\
  tr_SE3_num_smul Rops s = tr_SE3_smul Rops (rt2tr3 Rops (rotx_cs Rops (k_cos03 Rops) (k_sin03 Rops)) (1,2,3)) s.
Proof. intros; repeat split; ref_unfold; tuple_eq ltac:(field). Qed.
Print Assumptions C16_SE3_scalar_mixed.

(* pose OP scalar, SO3 / SE2 / SO2 *)
Theorem C16_SO3_SE2_SO2_scalar_value : forall (Rm : M33 R) (E : M33 R) (A : M22 R) (s : R),
  tr_SO3_smul Rops Rm s = mmap33 (fun x => x * s) Rm /\ tr_SO3_srmul Rops Rm s = mmap33 (fun x => s * x) Rm /\
  tr_SO3_sadd Rops Rm s = mmap33 (fun x => x + s) Rm /\ tr_SO3_sradd Rops Rm s = mmap33 (fun x => s + x) Rm /\
  tr_SO3_ssub Rops Rm s = mmap33 (fun x => x - s) Rm /\ tr_SO3_srsub Rops Rm s = mmap33 (fun x => s - x) Rm /\
  tr_SE2_smul Rops E s = mmap33 (fun x => x * s) (as_pose3 Rops E) /\ tr_SE2_srmul Rops E s = mmap33 (fun x => s * x) (as_pose3 Rops E) /\
  tr_SE2_sadd Rops E s = mmap33 (fun x => x + s) (as_pose3 Rops E) /\ tr_SE2_sradd Rops E s = mmap33 (fun x => s + x) (as_pose3 Rops E) /\
  tr_SE2_ssub Rops E s = mmap33 (fun x => x - s) (as_pose3 Rops E) /\ tr_SE2_srsub Rops E s = mmap33 (fun x => s - x) (as_pose3 Rops E) /\
  tr_SO2_smul Rops A s = mmap22 (fun x => x * s) A /\ tr_SO2_srmul Rops A s = mmap22 (fun x => s * x) A /\
  tr_SO2_sadd Rops A s = mmap22 (fun x => x + s) A /\ tr_SO2_sradd Rops A s = mmap22 (fun x => s + x) A /\
  tr_SO2_ssub Rops A s = mmap22 (fun x => x - s) A /\ tr_SO2_srsub Rops A s = mmap22 (fun x => s - x) A.
Proof. intros; repeat split; ref_ring. Qed.
Print Assumptions C16_SO3_SE2_SO2_scalar_value.

Theorem C16_SO3_SE2_SO2_scalar_div_value : forall (Rm : M33 R) (E : M33 R) (A : M22 R) (s : R), s <> 0 ->
  tr_SO3_sdiv Rops Rm s = mmap33 (fun x => x / s) Rm /\ tr_SE2_sdiv Rops E s = mmap33 (fun x => x / s) (as_pose3 Rops E) /\
  tr_SO2_sdiv Rops A s = mmap22 (fun x => x / s) A.
Proof. intros Rm E A s Hs. repeat split; gen_field. Qed.
Print Assumptions C16_SO3_SE2_SO2_scalar_div_value.
