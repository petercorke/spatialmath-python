(* C08 -- the mechanisms behind the table: the inheritance and method-resolution facts of the regenerated hierarchy, and
   lemmas about the operator methods that hold for EVERY length (not only the table's 1 and 3) -- the forms the earlier
   defects took (SE3 * SO3 = identity, pose + unrelated = None, inherited list concatenation / repetition, DualQuaternion * x
   = None) are excluded here for all n.  See Props/C08.v for the table theorems and the conventions. *)
From Coq Require Import List Bool Arith.
Import ListNotations.
From SM Require Import Model.C08_Ops.
From SMgen Require Import Hierarchy_C08.

(* the inheritance facts the dispatch code has to cope with, for the regenerated hierarchy *)
Theorem C08_hierarchy_facts :
  strict_subclass H SE3 SO3 = true /\ strict_subclass H SE2 SO2 = true /\
  strict_subclass H SO3 SE3 = false /\ strict_subclass H SO2 SE2 = false /\
  strict_subclass H UnitQuaternion Quaternion = true /\ strict_subclass H UnitDualQuaternion DualQuaternion = true /\
  (* the only proper-subclass pairs among the 16 public classes *)
  filter (fun p => strict_subclass H (fst p) (snd p)) (list_prod all_cls all_cls)
    = [(SE2, SO2); (SE3, SO3); (UnitQuaternion, Quaternion); (UnitDualQuaternion, DualQuaternion)].
Proof. vm_compute. repeat split; reflexivity. Qed.
Print Assumptions C08_hierarchy_facts.

(* method resolution, computed from the regenerated tables: the classes that define no + / * / == of their own get
   SMUserList's (which raise / compare element-wise), never collections.UserList's list operations *)
Theorem C08_method_resolution :
  forallb (fun c => forallb (fun m => negb (opt_pyc_beq (owner H c m) (Some (B UserList))))
                            [Fwd Add; Rev Add; Fwd Mul; Rev Mul; Fwd Eq; Fwd Ne]) all_cls = true /\
  owner H Twist3 (Fwd Add) = Some (B SMUserList) /\ owner H Twist2 (Fwd Add) = Some (B SMUserList) /\
  owner H Plucker (Fwd Add) = Some (B SMUserList) /\
  owner H SpatialVelocity (Fwd Mul) = Some (B SMUserList) /\ owner H SpatialVelocity (Fwd Eq) = Some (B SMUserList) /\
  owner H SpatialInertia (Fwd Eq) = Some (B SMUserList) /\ owner H SpatialInertia (Fwd Ne) = Some (B SMUserList) /\
  owner H Twist2 (Rev Mul) = Some (C Twist2) /\ owner H Twist3 (Rev Mul) = Some (C Twist3) /\
  owner H SE3 (Fwd Mul) = Some (B SMPose) /\ owner H SE3 (Rev Mul) = owner H SO3 (Rev Mul) /\
  owner H UnitDualQuaternion (Fwd Mul) = Some (C DualQuaternion) /\ owner H DualQuaternion (Rev Mul) = None /\
  owner H DualQuaternion (Fwd Eq) = Some (B PyObject).
Proof. vm_compute. repeat split; reflexivity. Qed.
Print Assumptions C08_method_resolution.

(* (before the repair SE3 * SO3 returned the default identity)  For EVERY length n: a pose times / over an object of any
   OTHER class -- in particular an instance of its superclass -- is not a composition: __mul__ declines, __truediv__ raises *)
Theorem C08_pose_composition_same_class_only : forall (n : nat) (l r : cls),
  is_pose H l = true -> cls_beq l r = false ->
  SMPose_mul H n l (Obj r) = NotImpl /\ SMPose_div H n l (Obj r) = Out Raise.
Proof.
  intros n l r _ Hlr. split; [apply SMPose_mul_other_class_declines | apply SMPose_div_other_class_raises]; assumption.
Qed.
Print Assumptions C08_pose_composition_same_class_only.
Example C08_pose_composition_nonvacuous : is_pose H SE3 = true /\ cls_beq SE3 SO3 = false /\ strict_subclass H SE3 SO3 = true.
Proof. vm_compute. repeat split; reflexivity. Qed.

(* ... and the whole protocol turns that into an exception, for every n and in both orders: neither operand's reflected method
   accepts a pose, and Python's "subclass first" rule does not apply (SE3 does not override __rmul__) *)
Theorem C08_subclass_pairs_raise : forall n : nat,
  binop H n Mul (Obj SE3) (Obj SO3) = Raise /\ binop H n Div (Obj SE3) (Obj SO3) = Raise /\
  binop H n Mul (Obj SO3) (Obj SE3) = Raise /\ binop H n Div (Obj SO3) (Obj SE3) = Raise /\
  binop H n Mul (Obj SE2) (Obj SO2) = Raise /\ binop H n Div (Obj SE2) (Obj SO2) = Raise /\
  binop H n Mul (Obj SO2) (Obj SE2) = Raise /\ binop H n Div (Obj SO2) (Obj SE2) = Raise /\
  binop H n Add (Obj SE3) (Obj SO3) = Raise /\ binop H n Sub (Obj SE3) (Obj SO3) = Raise /\
  binop H n Add (Obj SO3) (Obj SE3) = Raise /\ binop H n Sub (Obj SO3) (Obj SE3) = Raise.
Proof. intro n. vm_compute. repeat split; reflexivity. Qed.
Print Assumptions C08_subclass_pairs_raise.

(* (before the repair it returned None)  the shared helper of + and - raises for every right operand of an unrelated
   class, for every length, and never yields None at all *)
Theorem C08_pose_addsub_unrelated_raises : forall (n : nat) (l r : cls),
  isinst H r (C l) = false -> SMPose_addsub H n l (Obj r) = Out Raise.
Proof. intros. now apply SMPose_addsub_unrelated_raises. Qed.
Print Assumptions C08_pose_addsub_unrelated_raises.
Example C08_pose_addsub_nonvacuous : isinst H SO3 (C SE3) = false /\ isinst H Quaternion (C SE3) = false.
Proof. vm_compute. split; reflexivity. Qed.
Theorem C08_pose_addsub_never_none : forall (n : nat) (l : cls) (r : kind), SMPose_addsub H n l r <> Out ReturnsNone.
Proof. intros. apply SMPose_addsub_never_none. Qed.
Print Assumptions C08_pose_addsub_never_none.

(* for EVERY length and EVERY right operand kind of the table: the classes that define no + (twists, Plucker) raise on +,
   the spatial-vector classes raise on * from the left, and a dual quaternion times anything that is not a dual quaternion
   (or, for a unit one, a 3-vector) raises *)
Theorem C08_no_inherited_list_arithmetic : forall (n : nat) (r : kind), In r all_kinds ->
  forallb (fun X => outcome_beq (binop H n Add (Obj X) r) Raise) [Twist2; Twist3; Plucker] = true /\
  forallb (fun X => outcome_beq (binop H n Mul (Obj X) r) Raise) [SpatialVelocity; SpatialAcceleration; SpatialForce; SpatialMomentum] = true.
Proof.
  intros n r Hr. simpl in Hr.
  repeat (destruct Hr as [<- | Hr]; [vm_compute; split; reflexivity |]). destruct Hr.
Qed.
Print Assumptions C08_no_inherited_list_arithmetic.

Theorem C08_dual_quaternion_mul_raises : forall (n : nat) (r : kind), In r all_kinds ->
  match r with Obj DualQuaternion | Obj UnitDualQuaternion => true | _ => false end = false ->
  binop H n Mul (Obj DualQuaternion) r = Raise /\
  (isvector (match r with KArr s => s | _ => [] end) 3 = false -> binop H n Mul (Obj UnitDualQuaternion) r = Raise).
Proof.
  intros n r Hr Hnd. simpl in Hr.
  repeat (destruct Hr as [<- | Hr];
          [first [ discriminate Hnd | vm_compute; split; [reflexivity | intro Hv; first [discriminate Hv | reflexivity]] ] |]).
  destruct Hr.
Qed.
Print Assumptions C08_dual_quaternion_mul_raises.
Example C08_dual_quaternion_mul_nonvacuous :
  In KFloat all_kinds /\ In (Obj SE3) all_kinds /\ isvector [3; 3] 3 = false /\
  binop H 3 Mul (Obj UnitDualQuaternion) (KArr [3]) = Value RArray Computed.
Proof. vm_compute. repeat split; tauto. Qed.
