(* C08 -- Operators are type-safe: only documented operand pairs produce a result.

   The statements are fixed; [H : hier] (class hierarchy, method-resolution tables, class attributes) is REGENERATED
   from /repo by reflection on every run (gen/Hierarchy_C08.v), and the model (Model/C08_Ops.v: Python's operator protocol
   + one decision function per operator method) is compared with the implementation on every cell on every run.

   The domain is finite and the bound is in every statement: [all_cells] = every ordered pair of operand kinds
   (16 public classes, float, int, 3x3 / 4x4 arrays, a 3-vector) with at least one library object x the 10 operators
   * / + - ** @ == != ^ |  x  {single-valued, 3-valued} = 8320 cells.  The facts about every cell are evaluated
   once, on the larger table [ext_cells] that contains [all_cells] (Model/C08_Ops.v: all_cells_ext), and read off
   for the property's domain.

   FULL-STRENGTH STATEMENT, proved without any guard (C08_table):
       forall c, In c all_cells -> conforms (spec_of H c) (model H c) = true
   i.e. a Must cell returns the documented class (freshly computed), a May cell returns it or raises, every other
   arithmetic cell raises.  (The library did not satisfy this in 438 cells, through 10 root causes, before the
   commits listed in docs/C08.md.) *)
From Coq Require Import List Bool Arith NArith.
Import ListNotations.
From SM Require Import Model.C08_Ops.
From SMgen Require Import Hierarchy_C08.

Theorem C08_domain_size : N.of_nat (length all_cells) = 8320%N.
Proof. vm_compute. reflexivity. Qed.
Print Assumptions C08_domain_size.

(* lengths 1..4 and nine further array shapes (2-, 4-, 6-vectors, 2x2, 6x6, 3x5, 2x3, 3x1, 1x3): 28160 cells.  Only its part
   [all_cells] is the property's stated domain; the rest shows that the model is not fitted to the 8320 cells (the check
   also runs the implementation on this table). *)
Theorem C08_extended_table : forall c, In c ext_cells -> cell_ok H c = true /\ model H c <> Unmodelled /\ is_computed_or_raise (model H c) = true.
Proof.
  intros c Hin.
  apply (table_forall (fun c => let o := model H c in conforms (spec_of H c) o && is_computed_or_raise o)) in Hin.
  - cbv zeta in Hin. apply andb_true_iff in Hin. destruct Hin as [H1 H2].
    repeat split; [exact H1 | now apply computed_or_raise_modelled | exact H2].
  - vm_compute. reflexivity.
Qed.
Print Assumptions C08_extended_table.
Example C08_extended_size : N.of_nat (length ext_cells) = 28160%N.
Proof. vm_compute. reflexivity. Qed.

(* the model is total on the table: no cell reaches a branch the model does not claim to know *)
Theorem C08_model_total : forall c, In c all_cells -> model H c <> Unmodelled.
Proof. intros c Hin. now apply C08_extended_table, all_cells_ext. Qed.
Print Assumptions C08_model_total.

Theorem C08_table : forall c, In c all_cells -> cell_ok H c = true.
Proof. intros c Hin. now apply C08_extended_table, all_cells_ext. Qed.
Print Assumptions C08_table.

(* what the table contains: 167 Must cells, 251 May cells, 4650 cells that must raise, 3252 unconstrained comparisons;
   617 cells return a value *)
Example C08_table_census :
  map (fun p => length (filter p all_cells))
      [ (fun c => match spec_of H c with Must _ => true | _ => false end);
        (fun c => match spec_of H c with May _ => true | _ => false end);
        (fun c => match spec_of H c with MustRaise => true | _ => false end);
        (fun c => match spec_of H c with Free => true | _ => false end);
        (fun c => match model H c with Value _ _ => true | _ => false end) ]
  = [167; 251; 4650; 3252; 617].
Proof. vm_compute. reflexivity. Qed.

(* "in particular never None, an identity, or an object holding foreign elements": on the WHOLE table (comparison
   operators included) an operator either raises or returns freshly computed elements *)
Theorem C08_no_none_identity_foreign : forall c, In c all_cells -> is_computed_or_raise (model H c) = true.
Proof. intros c Hin. now apply C08_extended_table, all_cells_ext. Qed.
Print Assumptions C08_no_none_identity_foreign.

(* every pairing under an arithmetic operator that the documentation does not define raises *)
Theorem C08_undocumented_raises : forall c, In c all_cells -> spec_of H c = MustRaise -> model H c = Raise.
Proof.
  intros c Hin Hs. pose proof (C08_table c Hin) as Hok.
  unfold cell_ok in Hok. rewrite Hs in Hok. now apply outcome_beq_true.
Qed.
Print Assumptions C08_undocumented_raises.

(* the pairs the property text names return the documented class, freshly computed *)
Theorem C08_documented_pairs_return : forall c r, In c all_cells -> spec_of H c = Must r -> model H c = Value r Computed.
Proof.
  intros c r Hin Hs. pose proof (C08_table c Hin) as Hok.
  unfold cell_ok in Hok. rewrite Hs in Hok. now apply outcome_beq_true.
Qed.
Print Assumptions C08_documented_pairs_return.

(* a value is returned ONLY for documented pairs, and it has the documented class *)
Theorem C08_value_only_if_documented : forall c r p, In c all_cells -> arith_op (c_op c) = true -> model H c = Value r p ->
  p = Computed /\ (spec_of H c = Must r \/ spec_of H c = May r).
Proof.
  intros c r p Hin Ha Hm. pose proof (C08_table c Hin) as Hok. unfold cell_ok in Hok. rewrite Hm in Hok.
  pose proof (documented_arith H (c_n c) (c_op c) (c_l c) (c_r c) Ha) as Hfree. fold (spec_of H c) in Hfree.
  destruct (spec_of H c) as [r' | r' | |]; cbn [conforms] in Hok.
  - apply outcome_beq_true in Hok. injection Hok as -> ->. auto.
  - apply orb_true_iff in Hok. destruct Hok as [Hok|Hok]; apply outcome_beq_true in Hok; [|discriminate].
    injection Hok as -> ->. auto.
  - apply outcome_beq_true in Hok. discriminate.
  - now contradiction Hfree.
Qed.
Print Assumptions C08_value_only_if_documented.
