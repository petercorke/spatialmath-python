(* C07 -- the membership / unit / zero / skew predicates.
   Model: theories/Model/C07_Pred.v (hand-written, mirrors the code as it is; tied to /repo on every run by the
   extracted-model-vs-implementation correspondence and by the AST skeleton pass).
   Tolerances: gen/Consts_C07.v, REGENERATED from the source AST on every run; every theorem below is stated at the
   regenerated constant, the side condition  0 < tol /\ tol*eps < 1e-6  is re-proved for it (lemmas *_tol_ok).

   "Distance from the group" is formalised as the defect functional each predicate bounds:
     orth_defect R = ||R R' - I||_F  (+ the sign of det R),  unit_defect v = | ||v|| - 1 |,  ||v||,  skew_defect S = ||S + S'||_F.
   For each predicate three statements: completeness (exact members accepted), rejection band (defect >= 1e-6 -> false),
   soundness (true -> defect < tol*eps [and det > 0]).  Since the fixes 8457767 (isR tests det R > 0) and f745aab (isunit is
   isunitvec) every predicate satisfies the full-strength statements. *)
From Coq Require Import Reals Lra Bool.
From SM Require Import Base.Ops Base.Lin Base.RInst Base.RLin Model.C07_Pred.
From SMgen Require Import Consts_C07.
Open Scope R_scope.

Definition band : R := 1 / 1000000.
Definition tol_ok (k : R) : Prop := 0 < k /\ k * eps Rops < band.

Ltac c07_simpl := autounfold with c07 smlin in *; sm_simpl.
Ltac tol_tac := unfold tol_ok, band; cbv [isR_tol isskew_tol isskewa_tol iseye_tol ishom_tol isrot_tol isunitvec_tol
  iszerovec_tol iszero_tol isunittwist_tol isunittwist2_tol isunit_tol]; sm_simpl; split; lra.

(* the regenerated tolerances satisfy the side condition *)
Lemma isR_tol_ok : tol_ok (isR_tol Rops).  Proof. tol_tac. Qed.
Lemma isrot_tol_ok : tol_ok (isrot_tol Rops).  Proof. tol_tac. Qed.
Lemma ishom_tol_ok : tol_ok (ishom_tol Rops).  Proof. tol_tac. Qed.
Lemma isskew_tol_ok : tol_ok (isskew_tol Rops).  Proof. tol_tac. Qed.
Lemma isskewa_tol_ok : tol_ok (isskewa_tol Rops).  Proof. tol_tac. Qed.
Lemma iseye_tol_ok : tol_ok (iseye_tol Rops).  Proof. tol_tac. Qed.
Lemma isunitvec_tol_ok : tol_ok (isunitvec_tol Rops).  Proof. tol_tac. Qed.
Lemma iszerovec_tol_ok : tol_ok (iszerovec_tol Rops).  Proof. tol_tac. Qed.
Lemma iszero_tol_ok : tol_ok (iszero_tol Rops).  Proof. tol_tac. Qed.
Lemma isunittwist_tol_ok : tol_ok (isunittwist_tol Rops).  Proof. tol_tac. Qed.
Lemma isunittwist2_tol_ok : tol_ok (isunittwist2_tol Rops).  Proof. tol_tac. Qed.
Lemma isunit_tol_ok : tol_ok (isunit_tol Rops).  Proof. tol_tac. Qed.

Lemma thr_pos k : tol_ok k -> 0 < thr Rops k.
Proof. intros [H _]. unfold thr. sm_simpl. apply Rmult_lt_0_compat; lra. Qed.
Lemma thr_band k : tol_ok k -> thr Rops k < band.
Proof. intros [_ H]. unfold thr. exact H. Qed.
Lemma ltb_R x y : ltb Rops x y = Rltb x y.  Proof. reflexivity. Qed.
Lemma eqb_R x y : eqb Rops x y = Reqb x y.  Proof. reflexivity. Qed.
Lemma Reqb_false x y : Reqb x y = false <-> x <> y.
Proof. apply RInst.Reqb_false. Qed.
(* the row tests are exact *)
Lemma row_eq4_iff (r : V4 R) a b c d : row_eq4 Rops r a b c d = true <-> r = (a,b,c,d).
Proof.
  destruct r as [[[r0 r1] r2] r3]. unfold row_eq4. rewrite !eqb_R, !andb_true_iff, !Reqb_true.
  split; [intros [[[-> ->] ->] ->]; reflexivity | intros [= -> -> -> ->]; auto].
Qed.
Lemma row_eq3_iff (r : V3 R) a b c : row_eq3 Rops r a b c = true <-> r = (a,b,c).
Proof.
  destruct r as [[r0 r1] r2]. unfold row_eq3. rewrite !eqb_R, !andb_true_iff, !Reqb_true.
  split; [intros [[-> ->] ->]; reflexivity | intros [= -> -> ->]; auto].
Qed.

(* every predicate is [ltb (defect x) (thr k)]: a zero defect passes, a defect in the band fails, and passing bounds the defect *)
Lemma below_thr k x : tol_ok k -> x = 0 -> Rltb x (thr Rops k) = true.
Proof. intros H ->. apply Rltb_true. apply thr_pos, H. Qed.
Lemma above_band k x : tol_ok k -> band <= x -> Rltb x (thr Rops k) = false.
Proof. intros H Hx. apply Rltb_false. pose proof (thr_band k H). lra. Qed.
Lemma under_thr k x : tol_ok k -> ltb Rops x (thr Rops k) = true -> x < thr Rops k /\ x < band.
Proof. intros H Hx. rewrite ltb_R, Rltb_true in Hx. pose proof (thr_band k H). lra. Qed.

(* defects of exact members *)
Lemma unit_defect_1 x : x = 1 -> Rabs (sqrt x - 1) = 0.
Proof. intros ->. rewrite sqrt_1, Rminus_diag_eq by reflexivity. apply Rabs_R0. Qed.
Lemma unit_defect_0 x : x = 0 -> Rabs (sqrt x - 1) = 1.
Proof. intros ->. rewrite sqrt_0, <- Rabs_Ropp. replace (- (0 - 1)) with 1 by ring. apply Rabs_R1. Qed.
Lemma unit_defect3_unit (v : V3 R) : dot3 Rops v v = 1 -> unit_defect3 Rops v = 0.
Proof. apply unit_defect_1. Qed.
Lemma unit_defect4_unit (q : V4 R) : qnormsq Rops q = 1 -> unit_defect4 Rops q = 0.
Proof. apply unit_defect_1. Qed.
Lemma unit_defect2_unit (v : V2 R) : dot2 Rops v v = 1 -> unit_defect2 Rops v = 0.
Proof. apply unit_defect_1. Qed.
Lemma sqrt_sumsq_zero x : x = 0 -> sqrt x = 0.  Proof. intros ->. apply sqrt_0. Qed.
Lemma fro33_Z33 : fro33 Rops (Z33 Rops) = 0.
Proof. c07_simpl. apply sqrt_sumsq_zero. ring. Qed.
Lemma norm4_0 : norm4 Rops (0,0,0,0) = 0.
Proof. c07_simpl. apply sqrt_sumsq_zero. ring. Qed.

Lemma orth_defect3_I : forall R, mmul33 Rops R (mtr33 R) = I33 Rops -> orth_defect3 Rops R = 0.
Proof. intros R HR. unfold orth_defect3. rewrite HR. c07_simpl. apply sqrt_sumsq_zero. ring. Qed.
Lemma orth_defect2_I : forall R, mmul22 Rops R (mtr22 R) = I22 Rops -> orth_defect2 Rops R = 0.
Proof. intros R HR. unfold orth_defect2. rewrite HR. c07_simpl. apply sqrt_sumsq_zero. ring. Qed.

Lemma isR3_iff k (A : M33 R) : isR3 Rops k A = true <-> orth_defect3 Rops A < thr Rops k /\ 0 < det33 Rops A.
Proof. unfold isR3. rewrite andb_true_iff, !ltb_R, !Rltb_true. change (zero Rops) with 0. tauto. Qed.
Lemma isR2_iff k (A : M22 R) : isR2 Rops k A = true <-> orth_defect2 Rops A < thr Rops k /\ 0 < det22 Rops A.
Proof. unfold isR2. rewrite andb_true_iff, !ltb_R, !Rltb_true. change (zero Rops) with 0. tauto. Qed.

Lemma isR3_neg k (R : M33 R) : det33 Rops R <= 0 -> isR3 Rops k R = false.
Proof. intros D. destruct (isR3 Rops k R) eqn:E; [|reflexivity]. apply isR3_iff in E. lra. Qed.
Lemma isR2_neg k (R : M22 R) : det22 Rops R <= 0 -> isR2 Rops k R = false.
Proof. intros D. destruct (isR2 Rops k R) eqn:E; [|reflexivity]. apply isR2_iff in E. lra. Qed.
Lemma isR3_far k (R : M33 R) : tol_ok k -> band <= orth_defect3 Rops R -> isR3 Rops k R = false.
Proof. intros Hk H. unfold isR3. rewrite ltb_R, (above_band _ _ Hk H). reflexivity. Qed.
Lemma isR2_far k (R : M22 R) : tol_ok k -> band <= orth_defect2 Rops R -> isR2 Rops k R = false.
Proof. intros Hk H. unfold isR2. rewrite ltb_R, (above_band _ _ Hk H). reflexivity. Qed.
Lemma isR3_SO3 k (R : M33 R) : tol_ok k -> SO3 R -> isR3 Rops k R = true.
Proof. intros Hk H. apply SO3_matrix in H. destruct H as [H D]. apply isR3_iff. rewrite (orth_defect3_I R H), D. split; [apply thr_pos, Hk | lra]. Qed.
Lemma isR2_SO2 k (R : M22 R) : tol_ok k -> SO2 R -> isR2 Rops k R = true.
Proof. intros Hk H. apply SO2_matrix in H. destruct H as [H D]. apply isR2_iff. rewrite (orth_defect2_I R H), D. split; [apply thr_pos, Hk | lra]. Qed.
Lemma isR3_sound k (R : M33 R) : tol_ok k -> isR3 Rops k R = true ->
  orth_defect3 Rops R < thr Rops k /\ orth_defect3 Rops R < band /\ 0 < det33 Rops R.
Proof. intros Hk H. apply isR3_iff in H. destruct H as [H1 H2]. pose proof (thr_band _ Hk). repeat split; auto; lra. Qed.
Lemma isR2_sound k (R : M22 R) : tol_ok k -> isR2 Rops k R = true -> orth_defect2 Rops R < band /\ 0 < det22 Rops R.
Proof. intros Hk H. apply isR2_iff in H. destruct H as [H1 H2]. pose proof (thr_band _ Hk). split; [lra | exact H2]. Qed.

(* exact characterisation of what the code tests *)
Theorem C07_isR_characterised : forall R : M33 R,
  isR3 Rops (isR_tol Rops) R = true <-> orth_defect3 Rops R < thr Rops (isR_tol Rops) /\ 0 < det33 Rops R.
Proof. intros R. apply isR3_iff. Qed.
Print Assumptions C07_isR_characterised.

Theorem C07_isR_complete : forall R : M33 R, SO3 R -> isR3 Rops (isR_tol Rops) R = true.
Proof.
  intros R H. apply isR3_SO3; [apply isR_tol_ok | exact H].
Qed.
Print Assumptions C07_isR_complete.
Example C07_isR_complete_nonvacuous : SO3 (rotx_cs Rops (3/5) (4/5)) /\ rotx_cs Rops (3/5) (4/5) <> I33 Rops.
Proof. split. apply SO3_rotx; lra. lin_simpl. intros H. injection H; intros; lra. Qed.

Theorem C07_isR2_complete : forall R : M22 R, SO2 R -> isR2 Rops (isR_tol Rops) R = true.
Proof.
  intros R H. apply isR2_SO2; [apply isR_tol_ok | exact H].
Qed.
Print Assumptions C07_isR2_complete.
Example C07_isR2_complete_nonvacuous : SO2 (rot2_cs Rops (3/5) (4/5)).
Proof. apply SO2_rot2; lra. Qed.

Theorem C07_isR_band : forall R : M33 R, band <= orth_defect3 Rops R -> isR3 Rops (isR_tol Rops) R = false.
Proof. intros R. apply isR3_far, isR_tol_ok. Qed.
Print Assumptions C07_isR_band.
Example C07_isR_band_nonvacuous : band <= orth_defect3 Rops ((1,1,0),(0,1,0),(0,0,1)).
Proof.
  c07_simpl. unfold band. replace (_ + _ + _) with 3 by ring.
  apply Rle_trans with 1; [lra|]. apply sqrt_ge_1; lra.
Qed.
Theorem C07_isR2_band : forall R : M22 R, band <= orth_defect2 Rops R -> isR2 Rops (isR_tol Rops) R = false.
Proof. intros R. apply isR2_far, isR_tol_ok. Qed.
Print Assumptions C07_isR2_band.

(* FULL soundness and FULL rejection ("reflections included"); both were refuted by diag(1,1,-1) before fix 8457767 *)
Definition refl3 : M33 R := ((1,0,0),(0,1,0),(0,0,-1)).
Definition refl2 : M22 R := ((1,0),(0,-1)).
Theorem C07_isR_sound : forall R : M33 R, isR3 Rops (isR_tol Rops) R = true ->
  orth_defect3 Rops R < thr Rops (isR_tol Rops) /\ orth_defect3 Rops R < band /\ 0 < det33 Rops R.
Proof.
  intros R. apply isR3_sound, isR_tol_ok.
Qed.
Print Assumptions C07_isR_sound.
Theorem C07_isR2_sound : forall R : M22 R, isR2 Rops (isR_tol Rops) R = true -> orth_defect2 Rops R < band /\ 0 < det22 Rops R.
Proof.
  intros R. apply isR2_sound, isR_tol_ok.
Qed.
Print Assumptions C07_isR2_sound.
Theorem C07_isR_rejects_reflections : forall R : M33 R, det33 Rops R <= 0 -> isR3 Rops (isR_tol Rops) R = false.
Proof.
  intros R. apply isR3_neg.
Qed.
Print Assumptions C07_isR_rejects_reflections.
Theorem C07_isR2_rejects_reflections : forall R : M22 R, det22 Rops R <= 0 -> isR2 Rops (isR_tol Rops) R = false.
Proof.
  intros R. apply isR2_neg.
Qed.
Print Assumptions C07_isR2_rejects_reflections.
Example C07_reflection_nonvacuous : mmul33 Rops refl3 (mtr33 refl3) = I33 Rops /\ det33 Rops refl3 = -1.
Proof. unfold refl3. split; lin_simpl; [tuple_eq ltac:(ring) | ring]. Qed.
Example C07_reflection2_nonvacuous : mmul22 Rops refl2 (mtr22 refl2) = I22 Rops /\ det22 Rops refl2 = -1.
Proof. unfold refl2. split; lin_simpl; [tuple_eq ltac:(ring) | ring]. Qed.
(* diag(1,1,-1) is rejected although it is exactly orthogonal (it was accepted before 8457767) *)
Example C07_isR_rejects_diag_1_1_m1 : isR3 Rops (isR_tol Rops) refl3 = false /\ orth_defect3 Rops refl3 = 0.
Proof.
  destruct C07_reflection_nonvacuous as [H D]. split.
  - apply C07_isR_rejects_reflections. rewrite D. lra.
  - apply orth_defect3_I, H.
Qed.

(* isrot / ishom / isrot2 / ishom2, check on *)
Lemma ishom_iff k (A : M44 R) : ishom Rops true k A = true <-> isR3 Rops k (t2r3 A) = true /\ lastrow4 A = (0,0,0,1).
Proof. unfold ishom. cbn [negb orb]. now rewrite andb_true_iff, row_eq4_iff. Qed.
Lemma ishom2_iff k (A : M33 R) : ishom2 Rops true k A = true <-> isR2 Rops k (t2r2 A) = true /\ lastrow3 A = (0,0,1).
Proof. unfold ishom2. cbn [negb orb]. now rewrite andb_true_iff, row_eq3_iff. Qed.

Theorem C07_isrot_complete : forall R : M33 R, SO3 R -> isrot Rops true (isrot_tol Rops) R = true.
Proof.
  intros R H. apply isR3_SO3; [apply isrot_tol_ok | exact H].
Qed.
Print Assumptions C07_isrot_complete.
Theorem C07_isrot_band : forall R : M33 R, band <= orth_defect3 Rops R -> isrot Rops true (isrot_tol Rops) R = false.
Proof. intros R. apply isR3_far, isrot_tol_ok. Qed.
Print Assumptions C07_isrot_band.
Theorem C07_isrot_sound : forall R : M33 R, isrot Rops true (isrot_tol Rops) R = true -> orth_defect3 Rops R < band /\ 0 < det33 Rops R.
Proof.
  intros R H. now apply (isR3_sound _ _ isrot_tol_ok) in H.
Qed.
Print Assumptions C07_isrot_sound.

Theorem C07_ishom_complete : forall A : M44 R, SE3 A -> ishom Rops true (ishom_tol Rops) A = true.
Proof.
  intros A [H L]. apply ishom_iff. split; [apply isR3_SO3; [apply ishom_tol_ok | exact H] | exact L].
Qed.
Print Assumptions C07_ishom_complete.
Example C07_ishom_complete_nonvacuous : SE3 (rt2tr3 Rops (rotx_cs Rops (3/5) (4/5)) (1,2,3)).
Proof. apply SE3_rt. apply SO3_rotx; lra. Qed.
Theorem C07_ishom_band : forall A : M44 R, band <= orth_defect3 Rops (t2r3 A) -> ishom Rops true (ishom_tol Rops) A = false.
Proof. intros A H. unfold ishom. cbn [negb orb]. now rewrite (isR3_far _ _ ishom_tol_ok H). Qed.
Print Assumptions C07_ishom_band.
(* the last row is tested exactly: any corruption is rejected, whatever its size *)
Theorem C07_ishom_lastrow : forall A : M44 R, ishom Rops true (ishom_tol Rops) A = true -> lastrow4 A = (0,0,0,1).
Proof.
  intros A H. now apply ishom_iff in H.
Qed.
Print Assumptions C07_ishom_lastrow.
Theorem C07_ishom_badrow_rejected : forall A : M44 R, lastrow4 A <> (0,0,0,1) -> ishom Rops true (ishom_tol Rops) A = false.
Proof.
  intros A H. destruct (ishom Rops true (ishom_tol Rops) A) eqn:E; [|reflexivity]. apply C07_ishom_lastrow in E. contradiction.
Qed.
Print Assumptions C07_ishom_badrow_rejected.
(* FULL soundness (refuted by diag(1,1,-1,1) before fix 8457767) *)
Theorem C07_ishom_sound : forall A : M44 R, ishom Rops true (ishom_tol Rops) A = true ->
  orth_defect3 Rops (t2r3 A) < band /\ 0 < det33 Rops (t2r3 A) /\ lastrow4 A = (0,0,0,1).
Proof.
  intros A H. apply ishom_iff in H. destruct H as [H L]. apply (isR3_sound _ _ ishom_tol_ok) in H. tauto.
Qed.
Print Assumptions C07_ishom_sound.
Theorem C07_ishom_rejects_reflections : forall A : M44 R, det33 Rops (t2r3 A) <= 0 -> ishom Rops true (ishom_tol Rops) A = false.
Proof.
  intros A D. destruct (ishom Rops true (ishom_tol Rops) A) eqn:E; [|reflexivity]. apply C07_ishom_sound in E. lra.
Qed.
Print Assumptions C07_ishom_rejects_reflections.

(* 2-D: isrot2 / ishom2 call isR with ITS default tolerance *)
Theorem C07_isrot2_complete : forall R : M22 R, SO2 R -> isrot2 Rops true (isR_tol Rops) R = true.
Proof. intros R H. unfold isrot2. cbn [negb orb]. apply C07_isR2_complete, H. Qed.
Print Assumptions C07_isrot2_complete.
Theorem C07_ishom2_complete : forall A : M33 R, SE2 A -> ishom2 Rops true (isR_tol Rops) A = true.
Proof.
  intros A [H L]. apply ishom2_iff. split; [apply C07_isR2_complete, H | exact L].
Qed.
Print Assumptions C07_ishom2_complete.
Theorem C07_ishom2_band : forall A : M33 R, band <= orth_defect2 Rops (t2r2 A) -> ishom2 Rops true (isR_tol Rops) A = false.
Proof. intros A H. unfold ishom2. cbn [negb orb]. rewrite (C07_isR2_band _ H). reflexivity. Qed.
Print Assumptions C07_ishom2_band.
Theorem C07_ishom2_lastrow : forall A : M33 R, ishom2 Rops true (isR_tol Rops) A = true -> lastrow3 A = (0,0,1).
Proof.
  intros A H. now apply ishom2_iff in H.
Qed.
Print Assumptions C07_ishom2_lastrow.

(* values of the primitive constructors (exact arithmetic) are accepted *)
Theorem C07_constructors_accepted : forall c s : R, c*c + s*s = 1 ->
  isrot Rops true (isrot_tol Rops) (rotx_cs Rops c s) = true /\ isrot Rops true (isrot_tol Rops) (roty_cs Rops c s) = true /\
  isrot Rops true (isrot_tol Rops) (rotz_cs Rops c s) = true /\ isrot2 Rops true (isR_tol Rops) (rot2_cs Rops c s) = true /\
  (forall t, ishom Rops true (ishom_tol Rops) (rt2tr3 Rops (rotz_cs Rops c s) t) = true).
Proof.
  intros c s H. repeat split; try intros t.
  - apply C07_isrot_complete, SO3_rotx, H.
  - apply C07_isrot_complete, SO3_roty, H.
  - apply C07_isrot_complete, SO3_rotz, H.
  - apply C07_isrot2_complete, SO2_rot2, H.
  - apply C07_ishom_complete, SE3_rt, SO3_rotz, H.
Qed.
Print Assumptions C07_constructors_accepted.
Theorem C07_q2r_accepted : forall q : V4 R, qnormsq Rops q = 1 -> isrot Rops true (isrot_tol Rops) (q2r_ref Rops q) = true.
Proof. intros q H. apply C07_isrot_complete, SO3_q2r, H. Qed.
Print Assumptions C07_q2r_accepted.

Lemma isskew3_exact k (S : M33 R) : tol_ok k -> madd33 Rops S (mtr33 S) = Z33 Rops -> isskew3 Rops k S = true.
Proof. intros Hk H. unfold isskew3, skew_defect3. rewrite H. apply below_thr; [exact Hk | apply fro33_Z33]. Qed.
Lemma isskew3_far k (S : M33 R) : tol_ok k -> band <= skew_defect3 Rops S -> isskew3 Rops k S = false.
Proof. apply above_band. Qed.

Theorem C07_isskew_complete : forall S : M33 R, madd33 Rops S (mtr33 S) = Z33 Rops -> isskew3 Rops (isskew_tol Rops) S = true.
Proof. intros S. apply isskew3_exact, isskew_tol_ok. Qed.
Print Assumptions C07_isskew_complete.
Theorem C07_isskew_accepts_skew : forall v : V3 R, isskew3 Rops (isskew_tol Rops) (skew3 Rops v) = true.
Proof. intros v. apply C07_isskew_complete. lin_ring. Qed.
Print Assumptions C07_isskew_accepts_skew.
Theorem C07_isskew_band : forall S : M33 R, band <= skew_defect3 Rops S -> isskew3 Rops (isskew_tol Rops) S = false.
Proof. intros S. apply isskew3_far, isskew_tol_ok. Qed.
Print Assumptions C07_isskew_band.
Example C07_isskew_band_nonvacuous : band <= skew_defect3 Rops ((0,1,0),(0,0,0),(0,0,0)).
Proof.
  c07_simpl. unfold band. replace (_ + _ + _) with 2 by ring.
  apply Rle_trans with 1; [lra|]. apply sqrt_ge_1; lra.
Qed.
Theorem C07_isskew_sound : forall S : M33 R, isskew3 Rops (isskew_tol Rops) S = true ->
  skew_defect3 Rops S < thr Rops (isskew_tol Rops) /\ skew_defect3 Rops S < band.
Proof.
  intros S. apply under_thr, isskew_tol_ok.
Qed.
Print Assumptions C07_isskew_sound.
(* the defect is twice the Frobenius distance to the skew-symmetric matrices: no skew K is closer to S than defect/2 *)
Theorem C07_skew_defect_is_distance : forall (S : M33 R) (k : V3 R),
  frosq33 Rops (madd33 Rops S (mtr33 S)) <= 4 * frosq33 Rops (msub33 Rops S (skew3 Rops k)).
Proof.
  intros [[[[s00 s01] s02] [[s10 s11] s12]] [[s20 s21] s22]] [[x y] z]. c07_simpl.
  pose proof (Rle_0_sqr ((s01 - - z) - (s10 - z))). pose proof (Rle_0_sqr ((s02 - y) - (s20 - - y))).
  pose proof (Rle_0_sqr ((s12 - - x) - (s21 - x))). unfold Rsqr in *. nra.
Qed.
Print Assumptions C07_skew_defect_is_distance.

Theorem C07_isskew2_complete : forall S : M22 R, madd22 Rops S (mtr22 S) = ((0,0),(0,0)) -> isskew2 Rops (isskew_tol Rops) S = true.
Proof.
  intros S H. unfold isskew2, skew_defect2. rewrite H. apply below_thr; [apply isskew_tol_ok|].
  c07_simpl. apply sqrt_sumsq_zero. ring.
Qed.
Print Assumptions C07_isskew2_complete.
Theorem C07_isskew2_band : forall S : M22 R, band <= skew_defect2 Rops S -> isskew2 Rops (isskew_tol Rops) S = false.
Proof. intros S. apply above_band, isskew_tol_ok. Qed.
Print Assumptions C07_isskew2_band.

Theorem C07_isskewa_complete : forall S : M44 R, madd33 Rops (t2r3 S) (mtr33 (t2r3 S)) = Z33 Rops -> lastrow4 S = (0,0,0,0) ->
  isskewa4 Rops (isskewa_tol Rops) S = true.
Proof.
  intros S H L. unfold isskewa4. rewrite L, (isskew3_exact _ _ isskewa_tol_ok H). now apply row_eq4_iff.
Qed.
Print Assumptions C07_isskewa_complete.
Example C07_isskewa_complete_nonvacuous :
  let S : M44 R := ((0,-3,2,4),(3,0,-1,5),(-2,1,0,6),(0,0,0,0)) in
  madd33 Rops (t2r3 S) (mtr33 (t2r3 S)) = Z33 Rops /\ lastrow4 S = (0,0,0,0).
Proof. split; [lin_simpl; tuple_eq ltac:(ring) | reflexivity]. Qed.
Theorem C07_isskewa_band : forall S : M44 R, band <= skew_defect3 Rops (t2r3 S) \/ lastrow4 S <> (0,0,0,0) ->
  isskewa4 Rops (isskewa_tol Rops) S = false.
Proof.
  intros S [H|H]; unfold isskewa4.
  - now rewrite (isskew3_far _ _ isskewa_tol_ok H).
  - apply andb_false_iff. right. apply not_true_is_false. now rewrite row_eq4_iff.
Qed.
Print Assumptions C07_isskewa_band.

Theorem C07_iseye_complete : iseye3 Rops (iseye_tol Rops) (I33 Rops) = true.
Proof.
  apply below_thr; [apply iseye_tol_ok|]. c07_simpl. apply sqrt_sumsq_zero. ring.
Qed.
Print Assumptions C07_iseye_complete.
Theorem C07_iseye_band : forall S : M33 R, band <= eye_defect3 Rops S -> iseye3 Rops (iseye_tol Rops) S = false.
Proof. intros S. apply above_band, iseye_tol_ok. Qed.
Print Assumptions C07_iseye_band.
Theorem C07_iseye_sound : forall S : M33 R, iseye3 Rops (iseye_tol Rops) S = true -> eye_defect3 Rops S < band.
Proof. intros S H. now apply (under_thr _ _ iseye_tol_ok) in H. Qed.
Print Assumptions C07_iseye_sound.

Theorem C07_isunitvec_complete : forall v : V3 R, dot3 Rops v v = 1 -> isunitvec3 Rops (isunitvec_tol Rops) v = true.
Proof.
  intros v H. apply below_thr; [apply isunitvec_tol_ok | apply unit_defect3_unit, H].
Qed.
Print Assumptions C07_isunitvec_complete.
Example C07_isunitvec_complete_nonvacuous : dot3 Rops (3/5, 0, 4/5) (3/5, 0, 4/5) = 1.
Proof. lin_simpl. lra. Qed.
Theorem C07_isunitvec_band : forall v : V3 R, band <= unit_defect3 Rops v -> isunitvec3 Rops (isunitvec_tol Rops) v = false.
Proof. intros v. apply above_band, isunitvec_tol_ok. Qed.
Print Assumptions C07_isunitvec_band.
Example C07_isunitvec_band_nonvacuous : band <= unit_defect3 Rops (0,0,0).
Proof. c07_simpl. rewrite unit_defect_0 by ring. unfold band. lra. Qed.
Theorem C07_isunitvec_sound : forall v : V3 R, isunitvec3 Rops (isunitvec_tol Rops) v = true ->
  unit_defect3 Rops v < thr Rops (isunitvec_tol Rops) /\ unit_defect3 Rops v < band.
Proof. intros v. apply under_thr, isunitvec_tol_ok. Qed.
Print Assumptions C07_isunitvec_sound.
(* 4-vectors (UnitQuaternion.isvalid, quaternions.isunit), at any admissible tolerance *)
Lemma isunitvec4_complete k (q : V4 R) : tol_ok k -> qnormsq Rops q = 1 -> isunitvec4 Rops k q = true.
Proof. intros Hk H. apply below_thr; [exact Hk | apply unit_defect4_unit, H]. Qed.
Lemma isunitvec4_band k (q : V4 R) : tol_ok k -> band <= unit_defect4 Rops q -> isunitvec4 Rops k q = false.
Proof. apply above_band. Qed.
Lemma isunitvec4_sound k (q : V4 R) : tol_ok k -> isunitvec4 Rops k q = true -> unit_defect4 Rops q < band.
Proof. intros Hk H. now apply (under_thr _ _ Hk) in H. Qed.

Theorem C07_isunitvec4_complete : forall q : V4 R, qnormsq Rops q = 1 -> isunitvec4 Rops (isunitvec_tol Rops) q = true.
Proof.
  intros q. apply isunitvec4_complete, isunitvec_tol_ok.
Qed.
Print Assumptions C07_isunitvec4_complete.
Theorem C07_isunitvec4_band : forall q : V4 R, band <= unit_defect4 Rops q -> isunitvec4 Rops (isunitvec_tol Rops) q = false.
Proof. intros q. apply isunitvec4_band, isunitvec_tol_ok. Qed.
Print Assumptions C07_isunitvec4_band.
Theorem C07_isunitvec4_sound : forall q : V4 R, isunitvec4 Rops (isunitvec_tol Rops) q = true -> unit_defect4 Rops q < band.
Proof. intros q. apply isunitvec4_sound, isunitvec_tol_ok. Qed.
Print Assumptions C07_isunitvec4_sound.

Lemma iszerovec4_0 k : tol_ok k -> iszerovec4 Rops k (0,0,0,0) = true.
Proof. intros Hk. apply below_thr; [exact Hk | apply norm4_0]. Qed.
Lemma iszerovec4_far k (v : V4 R) : tol_ok k -> band <= norm4 Rops v -> iszerovec4 Rops k v = false.
Proof. apply above_band. Qed.

Theorem C07_iszerovec_complete : iszerovec3 Rops (iszerovec_tol Rops) (0,0,0) = true.
Proof. apply below_thr; [apply iszerovec_tol_ok | apply norm3_0]. Qed.
Print Assumptions C07_iszerovec_complete.
Theorem C07_iszerovec_band : forall v : V3 R, band <= norm3 Rops v -> iszerovec3 Rops (iszerovec_tol Rops) v = false.
Proof. intros v. apply above_band, iszerovec_tol_ok. Qed.
Print Assumptions C07_iszerovec_band.
Theorem C07_iszerovec_sound : forall v : V3 R, iszerovec3 Rops (iszerovec_tol Rops) v = true -> norm3 Rops v < band.
Proof. intros v H. now apply (under_thr _ _ iszerovec_tol_ok) in H. Qed.
Print Assumptions C07_iszerovec_sound.
Theorem C07_iszero_spec : forall x : R,
  (x = 0 -> iszero Rops (iszero_tol Rops) x = true) /\ (band <= Rabs x -> iszero Rops (iszero_tol Rops) x = false) /\
  (iszero Rops (iszero_tol Rops) x = true -> Rabs x < band).
Proof.
  intros x. unfold iszero. rewrite ltb_R. change (abs_ Rops x) with (Rabs x). repeat split.
  - intros ->. rewrite Rabs_R0. apply below_thr; [apply iszero_tol_ok | reflexivity].
  - intros H. apply above_band; [apply iszero_tol_ok | exact H].
  - intros H. now apply (under_thr _ _ iszero_tol_ok) in H.
Qed.
Print Assumptions C07_iszero_spec.

(* quaternions.isunit  (body: isunitvec(q, tol), fix f745aab) *)
Theorem C07_isunit_is_isunitvec : forall k (q : V4 R), isunit_q Rops k q = isunitvec4 Rops k q.
Proof. reflexivity. Qed.
Print Assumptions C07_isunit_is_isunitvec.
Theorem C07_isunit_complete : forall q : V4 R, qnormsq Rops q = 1 -> isunit_q Rops (isunit_tol Rops) q = true.
Proof.
  intros q. apply isunitvec4_complete, isunit_tol_ok.
Qed.
Print Assumptions C07_isunit_complete.
Example C07_isunit_complete_nonvacuous : qnormsq Rops (1,0,0,0) = 1 /\ qnormsq Rops (1/2,1/2,1/2,1/2) = 1.
Proof. split; lin_simpl; lra. Qed.
Theorem C07_isunit_band : forall q : V4 R, band <= unit_defect4 Rops q -> isunit_q Rops (isunit_tol Rops) q = false.
Proof. intros q. apply isunitvec4_band, isunit_tol_ok. Qed.
Print Assumptions C07_isunit_band.
Theorem C07_isunit_sound : forall q : V4 R, isunit_q Rops (isunit_tol Rops) q = true -> unit_defect4 Rops q < band.
Proof. intros q. apply isunitvec4_sound, isunit_tol_ok. Qed.
Print Assumptions C07_isunit_sound.
(* the zero quaternion is rejected (it was accepted before f745aab) *)
Example C07_isunit_rejects_zero : isunit_q Rops (isunit_tol Rops) (0,0,0,0) = false.
Proof.
  apply C07_isunit_band. c07_simpl. rewrite unit_defect_0 by ring. unfold band. lra.
Qed.

Lemma isunittwist_iff k (v w : V3 R) : isunittwist Rops k (v6 v w) = true <->
  unit_defect3 Rops w < thr Rops k \/ (norm3 Rops w < thr Rops k /\ unit_defect3 Rops v < thr Rops k).
Proof.
  destruct v as [[v0 v1] v2], w as [[w0 w1] w2]. unfold isunittwist, v6, isunitvec3.
  now rewrite orb_true_iff, andb_true_iff, !ltb_R, !Rltb_true.
Qed.
Lemma isunittwist2_iff k (v : V2 R) (w : R) : isunittwist2 Rops k (fst v, snd v, w) = true <->
  Rabs (Rabs w - 1) < thr Rops k \/ (Rabs w < thr Rops k /\ unit_defect2 Rops v < thr Rops k).
Proof.
  destruct v as [v0 v1]. unfold isunittwist2, isunitvec2. cbn [fst snd].
  now rewrite orb_true_iff, andb_true_iff, !ltb_R, !Rltb_true.
Qed.

Theorem C07_isunittwist_complete : forall v w : V3 R,
  (dot3 Rops w w = 1 \/ (w = (0,0,0) /\ dot3 Rops v v = 1)) -> isunittwist Rops (isunittwist_tol Rops) (v6 v w) = true.
Proof.
  intros v w H. apply isunittwist_iff. pose proof (thr_pos _ isunittwist_tol_ok).
  destruct H as [H|[-> H]]; rewrite (unit_defect3_unit _ H), ?norm3_0; tauto.
Qed.
Print Assumptions C07_isunittwist_complete.
Example C07_isunittwist_complete_nonvacuous : dot3 Rops (0,0,1) (0,0,1) = 1 /\ dot3 Rops (3/5,4/5,0) (3/5,4/5,0) = 1.
Proof. split; lin_simpl; lra. Qed.
Theorem C07_isunittwist_band : forall v w : V3 R,
  band <= unit_defect3 Rops w -> (band <= norm3 Rops w \/ band <= unit_defect3 Rops v) ->
  isunittwist Rops (isunittwist_tol Rops) (v6 v w) = false.
Proof.
  intros v w H1 H2. apply not_true_is_false. rewrite isunittwist_iff. pose proof (thr_band _ isunittwist_tol_ok). lra.
Qed.
Print Assumptions C07_isunittwist_band.
Theorem C07_isunittwist_sound : forall v w : V3 R, isunittwist Rops (isunittwist_tol Rops) (v6 v w) = true ->
  unit_defect3 Rops w < band \/ (norm3 Rops w < band /\ unit_defect3 Rops v < band).
Proof.
  intros v w H. apply isunittwist_iff in H. pose proof (thr_band _ isunittwist_tol_ok). lra.
Qed.
Print Assumptions C07_isunittwist_sound.
Theorem C07_isunittwist2_complete : forall (v : V2 R) (w : R),
  (Rabs w = 1 \/ (w = 0 /\ dot2 Rops v v = 1)) -> isunittwist2 Rops (isunittwist2_tol Rops) (fst v, snd v, w) = true.
Proof.
  intros v w H. apply isunittwist2_iff. pose proof (thr_pos _ isunittwist2_tol_ok).
  destruct H as [H|[-> H]].
  - left. rewrite H, Rminus_diag_eq, Rabs_R0 by reflexivity. assumption.
  - right. rewrite Rabs_R0, (unit_defect2_unit _ H). tauto.
Qed.
Print Assumptions C07_isunittwist2_complete.
Theorem C07_isunittwist2_band : forall (v : V2 R) (w : R),
  band <= Rabs (Rabs w - 1) -> (band <= Rabs w \/ band <= unit_defect2 Rops v) ->
  isunittwist2 Rops (isunittwist2_tol Rops) (fst v, snd v, w) = false.
Proof.
  intros v w H1 H2. apply not_true_is_false. rewrite isunittwist2_iff. pose proof (thr_band _ isunittwist2_tol_ok). lra.
Qed.
Print Assumptions C07_isunittwist2_band.

(* Bridge to the container model (Model/C07_Ctor.v).
   The container model abstracts an ndarray to a tag and lets rot_ok / hom_ok / unit_ok / alg_ok decide whether the class
   takes it.  Those decisions are exactly the decisions of the predicate models on every real array carrying the tag:
   Valid = exact member, NotOrtho / NotAlgebra = defect beyond the 1e-6 band, Reflect = improper orthogonal, BadRow = any
   corruption of the last row.  (Arrays with a defect inside the band carry no tag: the property leaves them open.) *)
From SM Require Import Model.C07_Ctor.

Definition tagged_rot3 (t : tag) (A : M33 R) : Prop :=
  match t with
  | Valid => SO3 A
  | NotOrtho => band <= orth_defect3 Rops A
  | Reflect => mmul33 Rops A (mtr33 A) = I33 Rops /\ det33 Rops A = -1
  | _ => False end.
Definition tagged_rot2 (t : tag) (A : M22 R) : Prop :=
  match t with
  | Valid => SO2 A
  | NotOrtho => band <= orth_defect2 Rops A
  | Reflect => mmul22 Rops A (mtr22 A) = I22 Rops /\ det22 Rops A = -1
  | _ => False end.
Definition tagged_hom4 (t : tag) (A : M44 R) : Prop :=
  match t with
  | Valid => SE3 A
  | NotOrtho => band <= orth_defect3 Rops (t2r3 A)
  | Reflect => tagged_rot3 Reflect (t2r3 A) /\ lastrow4 A = (0,0,0,1)
  | BadRow => lastrow4 A <> (0,0,0,1)
  | _ => False end.
Definition tagged_hom3 (t : tag) (A : M33 R) : Prop :=
  match t with
  | Valid => SE2 A
  | NotOrtho => band <= orth_defect2 Rops (t2r2 A)
  | Reflect => tagged_rot2 Reflect (t2r2 A) /\ lastrow3 A = (0,0,1)
  | BadRow => lastrow3 A <> (0,0,1)
  | _ => False end.
Definition tagged_unit4 (t : tag) (q : V4 R) : Prop :=
  match t with Valid => qnormsq Rops q = 1 | NotOrtho => band <= unit_defect4 Rops q | _ => False end.
Definition tagged_alg4 (t : tag) (A : M44 R) : Prop :=
  match t with
  | Valid => madd33 Rops (t2r3 A) (mtr33 (t2r3 A)) = Z33 Rops /\ lastrow4 A = (0,0,0,0)
  | NotAlgebra => band <= skew_defect3 Rops (t2r3 A) \/ band <= norm4 Rops (diag4 A) \/ band <= norm4 Rops (lastrow4 A)
  | _ => False end.

(* one case per tag; the tags a class does not use make the hypothesis False *)
Ltac by_tag t H := destruct t;
  cbn [tagged_rot3 tagged_rot2 tagged_hom4 tagged_hom3 tagged_unit4 tagged_alg4 rot_ok hom_ok unit_ok alg_ok] in H |- *;
  try contradiction.

Theorem C07_bridge_SO3 : forall t A, tagged_rot3 t A -> isrot Rops true (isrot_tol Rops) A = rot_ok t.
Proof.
  intros t A H. by_tag t H.
  - apply C07_isrot_complete, H.
  - apply C07_isrot_band, H.
  - destruct H as [_ D]. apply isR3_neg. rewrite D. lra.
Qed.
Print Assumptions C07_bridge_SO3.
Theorem C07_bridge_SO2 : forall t A, tagged_rot2 t A -> isrot2 Rops true (isR_tol Rops) A = rot_ok t.
Proof.
  intros t A H. by_tag t H.
  - apply C07_isrot2_complete, H.
  - apply C07_isR2_band, H.
  - destruct H as [_ D]. apply isR2_neg. rewrite D. lra.
Qed.
Print Assumptions C07_bridge_SO2.
Theorem C07_bridge_SE3 : forall t A, tagged_hom4 t A -> ishom Rops true (ishom_tol Rops) A = hom_ok t.
Proof.
  intros t A H. by_tag t H.
  - apply C07_ishom_complete, H.
  - apply C07_ishom_band, H.
  - destruct H as [[_ D] _]. apply C07_ishom_rejects_reflections. rewrite D. lra.
  - apply C07_ishom_badrow_rejected, H.
Qed.
Print Assumptions C07_bridge_SE3.
Theorem C07_bridge_SE2 : forall t A, tagged_hom3 t A -> ishom2 Rops true (isR_tol Rops) A = hom_ok t.
Proof.
  intros t A H. by_tag t H.
  - apply C07_ishom2_complete, H.
  - apply C07_ishom2_band, H.
  - destruct H as [[_ D] _]. apply not_true_is_false. rewrite ishom2_iff. intros [E _]. apply isR2_iff in E. lra.
  - apply not_true_is_false. rewrite ishom2_iff. tauto.
Qed.
Print Assumptions C07_bridge_SE2.
Theorem C07_bridge_UQ : forall t q, tagged_unit4 t q -> uq_isvalid Rops true (isunitvec_tol Rops) q = unit_ok t.
Proof.
  intros t q H. by_tag t H.
  - apply C07_isunitvec4_complete, H.
  - apply C07_isunitvec4_band, H.
Qed.
Print Assumptions C07_bridge_UQ.
Theorem C07_bridge_Twist3 : forall t A, tagged_alg4 t A ->
  tw3_isvalid_mat Rops true (iszerovec_tol Rops) (isskew_tol Rops) A = alg_ok t.
Proof.
  intros t A H. unfold tw3_isvalid_mat. cbn [negb orb]. by_tag t H.
  - destruct H as [H L].
    assert (Hd : diag4 A = (0,0,0,0)).
    { destruct A as [[[[[[a00 a01] a02] a03] [[[a10 a11] a12] a13]] [[[a20 a21] a22] a23]] [[[a30 a31] a32] a33]].
      c07_simpl. injection H; intros. injection L; intros. subst. repeat f_equal; lra. }
    rewrite Hd, L, (iszerovec4_0 _ iszerovec_tol_ok). apply isskew3_exact; [apply isskew_tol_ok | exact H].
  - destruct H as [H|[H|H]].
    + rewrite (isskew3_far _ _ isskew_tol_ok H). apply andb_false_r.
    + now rewrite (iszerovec4_far _ _ iszerovec_tol_ok H).
    + rewrite (iszerovec4_far _ _ iszerovec_tol_ok H), andb_false_r. reflexivity.
Qed.
Print Assumptions C07_bridge_Twist3.
Example C07_bridge_nonvacuous :
  tagged_rot3 Reflect refl3 /\ tagged_hom4 BadRow ((1,0,0,0),(0,1,0,0),(0,0,1,0),(0,0,0,2)) /\
  tagged_alg4 Valid ((0,-3,2,4),(3,0,-1,5),(-2,1,0,6),(0,0,0,0)) /\ tagged_unit4 Valid (1,0,0,0).
Proof.
  split; [exact C07_reflection_nonvacuous|]. split; [cbn; intros H; injection H; intros; lra|]. split.
  - split; [lin_simpl; tuple_eq ltac:(ring) | reflexivity].
  - cbn. lin_simpl. ring.
Qed.
