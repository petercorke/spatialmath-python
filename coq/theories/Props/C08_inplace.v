(* C08 -- the in-place forms  x *= y, x /= y, x += y, x -= y, x **= y, x @= y  of the arithmetic operators, over every operand
   kind of the other tables (16 classes, float, int, 3x3 / 4x4 arrays, 3-vector, lists and tuples of 2, 3, 4 numbers) with at
   least one library object, single- and 3-valued: [inplace_cells], 7296 cells (bound in every statement).
   Model: Python's in-place protocol (type(x).__iop__ if defined; absent or NotImplemented -> the binary protocol; the result
   is rebound to x) + the __iop__ methods of the library, each of which delegates (Model/C08_Ops.v: iop, ibody); method
   resolution of the __iop__ names is regenerated with the hierarchy.  Expectation: the binary operator's cell of the documented
   table -- the documented result class freshly computed, else an exception; in particular the receiver never comes back holding
   more values than it had (list extension / repetition through collections.UserList.__iadd__/__imul__, repaired by 5371e50).

   FULL-STRENGTH STATEMENT, proved without any guard (C08_inplace_table). *)
From Coq Require Import List Bool Arith NArith.
Import ListNotations.
From SM Require Import Model.C08_Ops.
From SMgen Require Import Hierarchy_C08.

Theorem C08_inplace_domain_size : N.of_nat (length inplace_cells) = 7296%N.
Proof. vm_compute. reflexivity. Qed.
Print Assumptions C08_inplace_domain_size.

(* one evaluation of the table: each cell's in-place outcome is computed once and put to every test *)
Lemma inplace_cells_checked : forall c, In c inplace_cells ->
  imodel H c = model H c /\
  conforms (spec_of H c) (imodel H c) = true /\ is_computed_or_raise (imodel H c) = true /\ imodel H c <> Unmodelled.
Proof.
  intros c Hin.
  apply (table_forall (fun c => let o := imodel H c in
           outcome_beq o (model H c) && conforms (spec_of H c) o && is_computed_or_raise o)) in Hin.
  - cbv zeta in Hin. rewrite !andb_true_iff in Hin. destruct Hin as [[H0 H1] H2].
    repeat split; [now apply outcome_beq_true | exact H1 | exact H2 | now apply computed_or_raise_modelled].
  - vm_compute. reflexivity.
Qed.

Theorem C08_inplace_table : forall c, In c inplace_cells ->
  conforms (spec_of H c) (imodel H c) = true /\ is_computed_or_raise (imodel H c) = true /\ imodel H c <> Unmodelled.
Proof. intros c Hin. now apply inplace_cells_checked. Qed.
Print Assumptions C08_inplace_table.
(* what the table contains: 103 Must cells, 263 May cells, 6930 cells that must raise; 314 cells return a value *)
Example C08_inplace_table_census :
  map (fun p => N.of_nat (length (filter p inplace_cells)))
      [ (fun c => match spec_of H c with Must _ => true | _ => false end);
        (fun c => match spec_of H c with May _ => true | _ => false end);
        (fun c => match spec_of H c with MustRaise => true | _ => false end);
        (fun c => match imodel H c with Value _ _ => true | _ => false end) ]
  = [103; 263; 6930; 314]%N.
Proof. vm_compute. reflexivity. Qed.

(* x op= y  gives exactly what  x op y  gives, on every cell *)
Theorem C08_inplace_equals_binary : forall c, In c inplace_cells -> imodel H c = model H c.
Proof. intros c Hin. now apply inplace_cells_checked. Qed.
Print Assumptions C08_inplace_equals_binary.

(* who supplies the in-place methods, from the regenerated tables: never collections.UserList *)
Theorem C08_inplace_method_resolution :
  forallb (fun c => forallb (fun o => negb (opt_pyc_beq (owner H c (Inp o)) (Some (B UserList)))) arith_ops) all_cls = true /\
  owner H SE3 (Inp Mul) = Some (B SMPose) /\ owner H SE3 (Inp Add) = Some (B SMPose) /\ owner H SE3 (Inp Pow) = None /\
  owner H Quaternion (Inp Mul) = Some (C Quaternion) /\ owner H UnitQuaternion (Inp Mul) = Some (C UnitQuaternion) /\
  owner H UnitQuaternion (Inp Pow) = Some (C Quaternion) /\ owner H Quaternion (Inp Add) = Some (B SMUserList) /\
  owner H Twist3 (Inp Mul) = Some (B SMUserList) /\ owner H Twist3 (Inp Add) = Some (B SMUserList) /\
  owner H SpatialVelocity (Inp Add) = Some (B SMUserList) /\ owner H SpatialVelocity (Inp Mul) = Some (B SMUserList) /\
  owner H DualQuaternion (Inp Mul) = None.
Proof. vm_compute. repeat split; reflexivity. Qed.
Print Assumptions C08_inplace_method_resolution.

Definition both_lengths (P : nat -> bool) : bool := forallb P lengths.

(* the forms that 5371e50 repaired: += on two objects of a class gives that class's sum (or raises where + is undefined), never a
   concatenation; twist *= scalar scales; and the in-place composition / scaling of poses and quaternions *)
Theorem C08_inplace_clauses :
  forallb (fun X => both_lengths (fun n => outcome_beq (iop H n Add (Obj X) (Obj X)) (Value (RObj X) Computed)))
          [SpatialVelocity; SpatialAcceleration; SpatialForce; SpatialMomentum] = true /\
  forallb (fun X => both_lengths (fun n => outcome_beq (iop H n Add (Obj X) (Obj X)) (Value (RObj Quaternion) Computed)))
          [Quaternion; UnitQuaternion] = true /\
  forallb (fun X => both_lengths (fun n => outcome_beq (iop H n Add (Obj X) (Obj X)) Raise)) [Twist2; Twist3; Plucker] = true /\
  forallb (fun X => both_lengths (fun n => forallb (fun s => outcome_beq (iop H n Mul (Obj X) s) (Value (RObj X) Computed)) [KFloat; KInt]))
          [Twist2; Twist3] = true /\
  forallb (fun X => both_lengths (fun n => forallb (fun s => outcome_beq (iop H n Mul (Obj X) s) Raise) [KFloat; KInt]))
          [SpatialVelocity; SpatialAcceleration; SpatialForce; SpatialMomentum; Plucker] = true /\
  forallb (fun X => both_lengths (fun n => outcome_beq (iop H n Mul (Obj X) (Obj X)) (Value (RObj X) Computed)
                                           && outcome_beq (iop H n Add (Obj X) (Obj X)) (Value (arr n) Computed)))
          [SO2; SE2; SO3; SE3] = true /\
  both_lengths (fun n => outcome_beq (iop H n Mul (Obj SE3) (Obj SO3)) Raise && outcome_beq (iop H n Mul (Obj SO3) (Obj SE3)) Raise
                      && outcome_beq (iop H n Add (Obj Twist3) (Obj Twist2)) Raise
                      && outcome_beq (iop H n Add (Obj UnitQuaternion) (Obj Quaternion)) (Value (RObj Quaternion) Computed)) = true /\
  (* a list or tuple as the receiver:  v *= pose,  v += pose  raise *)
  forallb (fun v => forallb (fun X => forallb (fun o => both_lengths (fun n => outcome_beq (iop H n o v (Obj X)) Raise)) arith_ops)
                            [SO2; SE2; SO3; SE3]) seq_kinds = true.
Proof. vm_compute. repeat split; reflexivity. Qed.
Print Assumptions C08_inplace_clauses.

(* for EVERY length n: the in-place + and * of a class that has none of its own are the binary protocol, nothing else *)
Theorem C08_inplace_is_binary_for_userlist_classes : forall (n : nat) (X : cls) (r : kind) (o : op),
  owner H X (Inp o) = Some (B SMUserList) -> In o [Add; Mul] -> iop H n o (Obj X) r = binop H n o (Obj X) r.
Proof.
  intros n X r o Ho Hin. unfold iop. rewrite Ho. simpl in Hin.
  destruct Hin as [<- | [<- | []]]; reflexivity.
Qed.
Print Assumptions C08_inplace_is_binary_for_userlist_classes.
Example C08_inplace_is_binary_nonvacuous : owner H Twist3 (Inp Mul) = Some (B SMUserList) /\ owner H Plucker (Inp Add) = Some (B SMUserList).
Proof. vm_compute. split; reflexivity. Qed.
