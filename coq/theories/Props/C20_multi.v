(* C20 -- multi-valued right operands: SE3 * x, v.cross(x), inertia * x act element-wise.
   The tr_*_2_k definitions are regenerated on every run: the library is run on a TWO-valued symbolic right
   operand and element k of the result is traced; each must be the single-valued trace applied to element k
   (and must not depend on the other element).  Lengths 0, 1, 2, 3, 6 are run on the implementation by the
   table part (C20_tab.v / props/C20.py); /repo 0da5cb1 is the commit that made these products element-wise. *)
From Coq Require Import Reals ZArith.
From SM Require Import Base.Ops Base.Lin Base.RInst Base.RLin Model.C20_Inertia.
From SMgen Require Import Traces_C20.
Open Scope R_scope.

Theorem C20_se3_multi_elementwise : forall (X : M44 R) (a b : V6 R),
  tr_se3_Vel_2_0 Rops X a b = tr_se3_Vel Rops X a /\ tr_se3_Vel_2_1 Rops X a b = tr_se3_Vel Rops X b /\
  tr_se3_Frc_2_0 Rops X a b = tr_se3_Frc Rops X a /\ tr_se3_Frc_2_1 Rops X a b = tr_se3_Frc Rops X b.
Proof. intros; repeat split; gen_ring. Qed.
Print Assumptions C20_se3_multi_elementwise.

Theorem C20_cross_multi_elementwise : forall (v a b : V6 R),
  tr_crm_2_0 Rops v a b = tr_crm Rops v a /\ tr_crm_2_1 Rops v a b = tr_crm Rops v b /\
  tr_crf_2_0 Rops v a b = tr_crf_Mom Rops v a /\ tr_crf_2_1 Rops v a b = tr_crf_Mom Rops v b.
Proof. intros; repeat split; gen_ring. Qed.
Print Assumptions C20_cross_multi_elementwise.

Theorem C20_inertia_mul_multi_elementwise : forall (J : M66 R) (a b : V6 R),
  tr_I_acc_2_0 Rops J a b = mv66 Rops J a /\ tr_I_acc_2_1 Rops J a b = mv66 Rops J b /\
  tr_I_vel_2_0 Rops J a b = mv66 Rops J a /\ tr_I_vel_2_1 Rops J a b = mv66 Rops J b.
Proof. intros; repeat split; gen_ring. Qed.
Print Assumptions C20_inertia_mul_multi_elementwise.
