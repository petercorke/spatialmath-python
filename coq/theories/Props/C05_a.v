(* C05 (part a: constructors) -- angle-set extraction is a right inverse of construction.
   Fixed statements.  The tr_* constructors are regenerated on every run by executing /repo's rpy2r / eul2r / rot2 /
   xyt2tr / angvec2r (and the class constructors) on symbols; c_* are the threshold factors re-read from the source AST;
   m_* are the hand models of Model/C05_Angles.v (tied to the implementation by the float correspondence run)
   instantiated with those factors.  The lemma library Model/C05_Proofs.v is parametric in the thresholds. *)
From Coq Require Import Reals Lra Psatz.
From Interval Require Import Tactic.
From SM Require Import Base.Ops Base.Lin Base.RInst Base.RLin Model.C05_Trig Model.C05_Angles Model.C05_Proofs.
From SMgen Require Import Consts_C05 Traces_C05.
Open Scope R_scope.

(* documented axis orders (traces of the real code) *)
Theorem C05_rpy2r_zyx_order : forall r p y : R,
  tr_rpy2r_zyx Rops r p y = mmul33 Rops (Rz Rops y) (mmul33 Rops (Ry Rops p) (Rx Rops r)).
Proof. c05_ring. Qed.
Print Assumptions C05_rpy2r_zyx_order.

Theorem C05_rpy2r_xyz_order : forall r p y : R,
  tr_rpy2r_xyz Rops r p y = mmul33 Rops (Rx Rops y) (mmul33 Rops (Ry Rops p) (Rz Rops r)).
Proof. c05_ring. Qed.
Print Assumptions C05_rpy2r_xyz_order.

Theorem C05_rpy2r_yxz_order : forall r p y : R,
  tr_rpy2r_yxz Rops r p y = mmul33 Rops (Ry Rops y) (mmul33 Rops (Rx Rops p) (Rz Rops r)).
Proof. c05_ring. Qed.
Print Assumptions C05_rpy2r_yxz_order.

Theorem C05_eul2r_order : forall f t s : R,
  tr_eul2r Rops f t s = mmul33 Rops (Rz Rops f) (mmul33 Rops (Ry Rops t) (Rz Rops s)).
Proof. c05_ring. Qed.
Print Assumptions C05_eul2r_order.

(* aliases, default order, vector call form, homogeneous form, class constructors: all the same function *)
Theorem C05_rpy2r_aliases : forall r p y : R,
  tr_rpy2r_vehicle Rops r p y = tr_rpy2r_zyx Rops r p y /\ tr_rpy2r_arm Rops r p y = tr_rpy2r_xyz Rops r p y /\
  tr_rpy2r_camera Rops r p y = tr_rpy2r_yxz Rops r p y /\ tr_rpy2r_default Rops r p y = tr_rpy2r_zyx Rops r p y.
Proof. intros; repeat split; c05_ring. Qed.
Print Assumptions C05_rpy2r_aliases.

Theorem C05_rpy2r_call_forms : forall r p y : R,
  tr_rpy2r_v_zyx Rops (r,p,y) = tr_rpy2r_zyx Rops r p y /\ tr_rpy2r_v_xyz Rops (r,p,y) = tr_rpy2r_xyz Rops r p y /\
  tr_rpy2r_v_yxz Rops (r,p,y) = tr_rpy2r_yxz Rops r p y /\ tr_eul2r_v Rops (r,p,y) = tr_eul2r Rops r p y.
Proof. intros; repeat split; c05_ring. Qed.
Print Assumptions C05_rpy2r_call_forms.

Theorem C05_class_constructors : forall r p y : R,
  tr_SO3_RPY_zyx Rops (r,p,y) = tr_rpy2r_zyx Rops r p y /\ tr_SO3_RPY_xyz Rops (r,p,y) = tr_rpy2r_xyz Rops r p y /\
  tr_SO3_RPY_yxz Rops (r,p,y) = tr_rpy2r_yxz Rops r p y /\ tr_SO3_Eul Rops (r,p,y) = tr_eul2r Rops r p y /\
  tr_SE3_RPY_zyx Rops (r,p,y) = rt2tr3 Rops (tr_rpy2r_zyx Rops r p y) (0,0,0) /\
  tr_SE3_RPY_xyz Rops (r,p,y) = rt2tr3 Rops (tr_rpy2r_xyz Rops r p y) (0,0,0) /\
  tr_SE3_RPY_yxz Rops (r,p,y) = rt2tr3 Rops (tr_rpy2r_yxz Rops r p y) (0,0,0) /\
  tr_SE3_Eul Rops (r,p,y) = rt2tr3 Rops (tr_eul2r Rops r p y) (0,0,0) /\
  tr_rpy2tr_zyx Rops r p y = rt2tr3 Rops (tr_rpy2r_zyx Rops r p y) (0,0,0) /\
  tr_rpy2tr_xyz Rops r p y = rt2tr3 Rops (tr_rpy2r_xyz Rops r p y) (0,0,0) /\
  tr_rpy2tr_yxz Rops r p y = rt2tr3 Rops (tr_rpy2r_yxz Rops r p y) (0,0,0) /\
  tr_eul2tr Rops r p y = rt2tr3 Rops (tr_eul2r Rops r p y) (0,0,0).
Proof. intros; repeat split; c05_ring. Qed.
Print Assumptions C05_class_constructors.

Theorem C05_planar_constructors : forall x y t : R,
  tr_rot2 Rops t = rot2_cs Rops (cos t) (sin t) /\ tr_xyt2tr Rops (x,y,t) = xyt2tr_ref Rops (x,y,t) /\
  tr_SE2_xyt Rops (x,y,t) = tr_xyt2tr Rops (x,y,t).
Proof. intros; repeat split; c05_ring. Qed.
Print Assumptions C05_planar_constructors.

(* the constructors land in the group *)
Theorem C05_constructors_in_SO3 : forall r p y : R,
  SO3 (tr_rpy2r_zyx Rops r p y) /\ SO3 (tr_rpy2r_xyz Rops r p y) /\ SO3 (tr_rpy2r_yxz Rops r p y) /\ SO3 (tr_eul2r Rops r p y).
Proof.
  intros. rewrite C05_rpy2r_zyx_order, C05_rpy2r_xyz_order, C05_rpy2r_yxz_order, C05_eul2r_order.
  split; [|split; [|split]]; apply SO3_mul3; first [apply SO3_Rz | apply SO3_Ry | apply SO3_Rx].
Qed.
Print Assumptions C05_constructors_in_SO3.

(* axis-angle: rotation by theta about the NORMALISED axis (Rodrigues), traced path |v| >= 10 eps *)
Definition rodrigues_ref (th : R) (u : V3 R) : M33 R :=
  madd33 Rops (I33 Rops) (madd33 Rops (mscale33 Rops (sin th) (skew3 Rops u))
                                      (mscale33 Rops (1 - cos th) (mmul33 Rops (skew3 Rops u) (skew3 Rops u)))).
Theorem C05_angvec2r_is_rodrigues : forall (th : R) (v : V3 R), 0 < normsq3 Rops v ->
  tr_angvec2r Rops th v = rodrigues_ref th (vscale3 Rops (/ norm3 Rops v) v).
Proof.
  intros th v H. destruct v as [[v0 v1] v2]. unfold rodrigues_ref. autounfold with smgen smlin in *. sm_simpl.
  set (n2 := v0*v0 + v1*v1 + v2*v2) in *.
  assert (Hs : 0 < sqrt n2) by (apply sqrt_lt_R0; exact H).
  assert (Hss : sqrt n2 * sqrt n2 = n2) by (apply sqrt_sqrt; lra).
  set (s := sqrt n2) in *. clearbody s. clearbody n2. subst n2.
  tuple_eq ltac:(idtac).
  all: field; lra.
Qed.
Print Assumptions C05_angvec2r_is_rodrigues.
Example C05_angvec2r_nonvacuous : 0 < normsq3 Rops (1, 2, 3).
Proof. autounfold with smlin. sm_simpl. lra. Qed.

(* the code multiplies by the double math.pi/180; deg2rad_f is that double, exactly *)
Definition deg2rad_f : R := 5030569068109113 / 288230376151711744.
Lemma C05_deg2rad_f_close : Rabs (deg2rad_f - PI/180) <= 1/10^18.
Proof. unfold deg2rad_f. interval with (i_prec 120). Qed.
Print Assumptions C05_deg2rad_f_close.

Theorem C05_constructors_deg : forall r p y : R,
  tr_rpy2r_deg_zyx Rops r p y = tr_rpy2r_zyx Rops (deg2rad_f*r) (deg2rad_f*p) (deg2rad_f*y) /\
  tr_rpy2r_deg_xyz Rops r p y = tr_rpy2r_xyz Rops (deg2rad_f*r) (deg2rad_f*p) (deg2rad_f*y) /\
  tr_rpy2r_deg_yxz Rops r p y = tr_rpy2r_yxz Rops (deg2rad_f*r) (deg2rad_f*p) (deg2rad_f*y) /\
  tr_eul2r_deg Rops r p y = tr_eul2r Rops (deg2rad_f*r) (deg2rad_f*p) (deg2rad_f*y) /\
  tr_rot2_deg Rops r = tr_rot2 Rops (deg2rad_f*r) /\
  tr_xyt2tr_deg Rops (r,p,y) = tr_xyt2tr Rops (r,p,deg2rad_f*y).
Proof. intros. unfold deg2rad_f. repeat split; c05_ring. Qed.
Print Assumptions C05_constructors_deg.

