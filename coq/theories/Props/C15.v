(* C15 -- argument forms are interchangeable; wrong lengths are rejected.
   Theorems about the hand model Model/C15_ArgCheck.v of spatialmath/base/argcheck.py
   (getvector / isvector / assertvector / getunit), for ALL element lists of ALL lengths.
   The model is tied to /repo on every run by the correspondence grid of props/C15.py.
   No Reals here: every theorem is closed under the global context. *)
From Coq Require Import List Arith Bool Lia ZArith.
From SM Require Import Base.Ops Model.C15_ArgCheck.
Import ListNotations.

Section Forms.
Variables (E F : Type) (cv : E -> F).
Notation getvector := (@getvector E F cv).

Lemma shape_eqb_refl s : shape_eqb s s = true.
Proof. unfold shape_eqb; destruct (list_eq_dec Nat.eq_dec s s); congruence. Qed.
Lemma shape_eqb_true a b : shape_eqb a b = true <-> a = b.
Proof. unfold shape_eqb; destruct (list_eq_dec Nat.eq_dec a b); split; congruence. Qed.

Lemma shape_ok_iff s d : shape_ok s d = true <-> s = [d] \/ s = [1; d] \/ s = [d; 1].
Proof. unfold shape_ok. rewrite !orb_true_iff, !shape_eqb_true. tauto. Qed.

(* shape (n,), (1,n), (n,1) is accepted for dim d exactly when n = d *)
Lemma shape_ok_1 n d : shape_ok [n] d = (n =? d).
Proof. apply eq_iff_eq_true. rewrite shape_ok_iff, Nat.eqb_eq. split; [intros [H|[H|H]]; congruence | intros ->; auto]. Qed.
Lemma shape_ok_row n d : shape_ok [1; n] d = (n =? d).
Proof. apply eq_iff_eq_true. rewrite shape_ok_iff, Nat.eqb_eq. split; [intros [H|[H|H]]; congruence | intros ->; auto]. Qed.
Lemma shape_ok_col n d : shape_ok [n; 1] d = (n =? d).
Proof. apply eq_iff_eq_true. rewrite shape_ok_iff, Nat.eqb_eq. split; [intros [H|[H|H]]; congruence | intros ->; auto]. Qed.

(* the three ndarray forms are interchangeable: every list, every dim, every out *)
Theorem C15_getvector_row_col_nd1 : forall (l : list E) dim out,
  getvector (NdRow l) dim out = getvector (Nd1 l) dim out /\
  getvector (NdCol l) dim out = getvector (Nd1 l) dim out.
Proof.
  intros l dim out; unfold NdRow, NdCol, Nd1; cbn [C15_ArgCheck.getvector]; unfold gv_nd.
  destruct dim as [d|]; [rewrite shape_ok_row, shape_ok_col, shape_ok_1|]; split; reflexivity.
Qed.

(* list and tuple are interchangeable (except out='sequence', which is documented to hand back the argument) *)
Theorem C15_getvector_tuple_list : forall (l : list E) dim out, out <> OSequence ->
  getvector (PyTuple l) dim out = getvector (PyList l) dim out.
Proof. intros l dim out H; cbn; unfold gv_seq; destruct out; try reflexivity; congruence. Qed.
Example C15_tuple_list_sequence_differs (x : E) :
  getvector (PyTuple [x]) None OSequence <> getvector (PyList [x]) None OSequence.
Proof. cbn; congruence. Qed.

(* list vs 1-D array: FULL STATEMENT (holds since fix 08cac29 closed the empty-list hole) *)
Theorem C15_getvector_list_nd1 : forall (l : list E) dim out, out <> OSequence ->
  getvector (PyList l) dim out = getvector (Nd1 l) dim out.
Proof.
  intros l dim out H. unfold Nd1; cbn [C15_ArgCheck.getvector]; unfold gv_seq, gv_nd.
  destruct dim as [d|].
  - rewrite shape_ok_1. destruct (negb (length l =? d)); [reflexivity|]. destruct out; try reflexivity; congruence.
  - destruct out; try reflexivity; congruence.
Qed.
(* the case that fix 08cac29 closed: the empty list with a dim is rejected exactly like the empty array *)
Example C15_getvector_empty_list_rejected : forall d, d <> 0 ->
  getvector (PyList []) (Some d) OArray = Err ValueError /\ getvector (Nd1 []) (Some d) OArray = Err ValueError.
Proof.
  intros d H; unfold Nd1; cbn [C15_ArgCheck.getvector length]; unfold gv_seq, gv_nd; rewrite shape_ok_1; cbn [length].
  destruct (Nat.eqb_spec 0 d); [congruence|split; reflexivity].
Qed.
Example C15_list_nd1_nonvacuous (x y z : E) :
  getvector (PyList [x; y; z]) (Some 3) OArray = Ok (VArr1 [cv x; cv y; cv z]) /\
  getvector (Nd1 [x; y; z]) (Some 3) OArray = Ok (VArr1 [cv x; cv y; cv z]).
Proof. split; reflexivity. Qed.

(* a scalar is the one-element list (code: `v = [v]`) *)
Theorem C15_getvector_scalar : forall (x : E) dim out,
  getvector (Scalar x) dim out = getvector (PyList [x]) dim out.
Proof. reflexivity. Qed.

(* all five forms at once, every list (the empty one included): one result *)
Definition form5 (k : nat) (l : list E) : pyarg E :=
  match k with 0 => PyList l | 1 => PyTuple l | 2 => Nd1 l | 3 => NdRow l | _ => NdCol l end.

Theorem C15_getvector_five_forms : forall k (l : list E) dim,
  getvector (form5 k l) dim OArray = getvector (Nd1 l) dim OArray.
Proof.
  intros k l dim.
  destruct k as [|[|[|[|k]]]]; cbn [form5].
  - apply C15_getvector_list_nd1; congruence.
  - rewrite C15_getvector_tuple_list by congruence. apply C15_getvector_list_nd1; congruence.
  - reflexivity.
  - apply C15_getvector_row_col_nd1.
  - apply C15_getvector_row_col_nd1.
Qed.

(* no truncation, no padding: whatever is accepted comes back element for element *)
Theorem C15_getvector_value : forall (a : pyarg E) dim v,
  getvector a dim OArray = Ok v -> v = VArr1 (map cv (elems a)).
Proof.
  intros a dim v; destruct a; cbn; unfold gv_seq, gv_nd;
    repeat match goal with |- context [if ?c then _ else _] => destruct c end; intros H; inversion H; reflexivity.
Qed.

Theorem C15_wrong_length_ndarray : forall (l : list E) d out, length l <> d ->
  getvector (Nd1 l) (Some d) out = Err ValueError /\
  getvector (NdRow l) (Some d) out = Err ValueError /\
  getvector (NdCol l) (Some d) out = Err ValueError.
Proof.
  intros l d out H. unfold Nd1, NdRow, NdCol; cbn [C15_ArgCheck.getvector]; unfold gv_nd.
  rewrite shape_ok_1, shape_ok_row, shape_ok_col. destruct (Nat.eqb_spec (length l) d); [congruence|]. repeat split.
Qed.

(* a genuine matrix (neither a row nor a column) is never taken for a vector of a stated length *)
Theorem C15_matrix_rejected : forall r c (l : list E) d out, r <> 1 -> c <> 1 ->
  getvector (Nd2 r c l) (Some d) out = Err ValueError.
Proof.
  intros r c l d out Hr Hc. unfold Nd2; cbn [C15_ArgCheck.getvector]; unfold gv_nd.
  destruct (shape_ok [r; c] d) eqn:S; [|reflexivity]. apply shape_ok_iff in S. destruct S as [S|[S|S]]; congruence.
Qed.

(* FULL STATEMENT (holds since fix 08cac29) *)
Theorem C15_wrong_length_sequence : forall (l : list E) d out, length l <> d ->
  getvector (PyList l) (Some d) out = Err ValueError /\ getvector (PyTuple l) (Some d) out = Err ValueError.
Proof.
  intros l d out H; cbn [C15_ArgCheck.getvector]; unfold gv_seq.
  destruct (Nat.eqb_spec (length l) d); [congruence|]. split; reflexivity.
Qed.
Example C15_wrong_length_nonvacuous (x y : E) :
  getvector (PyList [x; y]) (Some 3) OArray = Err ValueError /\ getvector (@PyList E []) (Some 3) OArray = Err ValueError.
Proof. split; reflexivity. Qed.

(* wrong length is rejected in ALL five forms *)
Theorem C15_wrong_length_five_forms : forall k (l : list E) d, length l <> d ->
  getvector (form5 k l) (Some d) OArray = Err ValueError.
Proof.
  intros k l d H. rewrite C15_getvector_five_forms. now apply C15_wrong_length_ndarray.
Qed.

Theorem C15_wrong_length_scalar : forall (x : E) d out, d <> 1 -> getvector (Scalar x) (Some d) out = Err ValueError.
Proof.
  intros x d out H; cbn [C15_ArgCheck.getvector]; unfold gv_seq; cbn [negb andb length].
  destruct (Nat.eqb_spec 1 d); [congruence|reflexivity].
Qed.

(* the right length is accepted in every form *)
Theorem C15_right_length_accepted : forall k (l : list E),
  getvector (form5 k l) (Some (length l)) OArray = Ok (VArr1 (map cv l)).
Proof.
  intros k l. rewrite C15_getvector_five_forms. unfold Nd1; cbn [C15_ArgCheck.getvector]; unfold gv_nd.
  now rewrite shape_ok_1, Nat.eqb_refl.
Qed.

(* anything that is not a scalar, list, tuple or ndarray is a TypeError; a bad out= is a ValueError *)
Theorem C15_other_rejected : forall dim out, getvector Other dim out = Err TypeError.
Proof. reflexivity. Qed.
Theorem C15_bad_out_rejected : forall (a : pyarg E) dim, a <> Other -> getvector a dim OBad = Err ValueError.
Proof.
  intros a dim H; destruct a; cbn; unfold gv_seq, gv_nd; try congruence;
    repeat match goal with |- context [if ?c then _ else _] => destruct c end; reflexivity.
Qed.

(* isvector agrees with getvector succeeding; with a dim it decides getvector outright *)
Lemma getvector_isvector (a : pyarg E) d :
  getvector a (Some d) OArray =
  match isvector a (Some d) with
  | Ok true => Ok (VArr1 (map cv (elems a)))
  | _ => Err (match a with Other => TypeError | _ => ValueError end)
  end.
Proof.
  destruct a; cbn [C15_ArgCheck.getvector C15_ArgCheck.isvector elems]; unfold gv_seq, gv_nd; cbn [length].
  - rewrite (Nat.eqb_sym 1 d). destruct (d =? 1); reflexivity.
  - destruct (length l =? d); reflexivity.
  - destruct (length l =? d); reflexivity.
  - destruct (shape_ok shape d); reflexivity.
  - reflexivity.
Qed.

Theorem C15_isvector_sound : forall (a : pyarg E) dim, wf a -> isvector a dim = Ok true ->
  getvector a dim OArray = Ok (VArr1 (map cv (elems a))) /\
  (forall d, dim = Some d -> length (elems a) = d).
Proof.
  intros a dim W H. split.
  - destruct dim as [d|]; [now rewrite getvector_isvector, H|]. destruct a; try discriminate H; reflexivity.
  - intros d ->. destruct a; cbn in H, W |- *; injection H as H.
    + symmetry. now apply Nat.eqb_eq.
    + now apply Nat.eqb_eq.
    + now apply Nat.eqb_eq.
    + apply shape_ok_iff in H. destruct H as [-> | [-> | ->]]; cbn in W; lia.
    + discriminate.
Qed.
Example C15_isvector_sound_nonvacuous (x y z : E) :
  wf (NdCol [x; y; z]) /\ isvector (NdCol [x; y; z]) (Some 3) = Ok true.
Proof. split; reflexivity. Qed.

(* completeness, WITH a dim: full statement, every argument (holds since fix 08cac29) *)
Theorem C15_isvector_complete_with_dim : forall (a : pyarg E) d v,
  getvector a (Some d) OArray = Ok v -> isvector a (Some d) = Ok true.
Proof.
  intros a d v H. rewrite getvector_isvector in H. destruct (isvector a (Some d)) as [[|]|]; [reflexivity | discriminate ..].
Qed.

(* completeness WITHOUT a dim.  FULL STATEMENT (still false): getvector a None OArray = Ok v -> isvector a None = Ok true.
   By design getvector (a converter) accepts the empty vector in every form, isvector (a predicate) in none (since fix 2c16cfc);
   third witness: a matrix, which getvector flattens silently when no dim is given *)
Theorem C15_isvector_complete_refuted : forall (x : E),
  (getvector (PyList []) None OArray = Ok (VArr1 []) /\ isvector (@PyList E []) None = Ok false) /\
  (getvector (Nd1 []) None OArray = Ok (VArr1 []) /\ isvector (@Nd1 E []) None = Ok false) /\
  (getvector (Nd2 2 2 [x; x; x; x]) None OArray = Ok (VArr1 [cv x; cv x; cv x; cv x]) /\ isvector (Nd2 2 2 [x; x; x; x]) None = Ok false).
Proof. intros; repeat split. Qed.

(* isvector itself is form-independent: FULL STATEMENT, every list (holds since fix 2c16cfc: the empty list/tuple is no vector either) *)
Theorem C15_isvector_five_forms : forall k (l : list E) dim,
  isvector (form5 k l) dim = isvector (Nd1 l) dim.
Proof.
  intros k l dim.
  assert (L : negb (is_nil l) = (0 <? length l)) by (destruct l; reflexivity).
  destruct k as [|[|[|[|k]]]]; cbn [form5]; unfold Nd1, NdRow, NdCol; cbn [C15_ArgCheck.isvector]; destruct dim as [d|];
    rewrite ?shape_ok_1, ?shape_ok_row, ?shape_ok_col, ?L; try reflexivity;
    destruct l; cbn [length Nat.eqb Nat.ltb Nat.leb andb orb]; rewrite ?andb_true_r, ?orb_true_r, ?andb_false_r; reflexivity.
Qed.
Example C15_isvector_empty_forms_agree :
  isvector (@PyList E []) None = Ok false /\ isvector (@PyTuple E []) None = Ok false /\ isvector (@Nd1 E []) None = Ok false.
Proof. repeat split. Qed.

Theorem C15_isvector_complete_partial : forall k (l : list E) dim v, l <> [] ->
  getvector (form5 k l) dim OArray = Ok v -> isvector (form5 k l) dim = Ok true.
Proof.
  intros k l dim v Hn H. rewrite C15_getvector_five_forms in H. rewrite C15_isvector_five_forms.
  destruct dim as [d|]; [now apply C15_isvector_complete_with_dim with v|].
  destruct l; [congruence|reflexivity].
Qed.

(* a vector of the wrong length is never a vector of length d, in any form (isvector has no hole) *)
Theorem C15_isvector_wrong_length : forall k (l : list E) d, length l <> d -> isvector (form5 k l) (Some d) = Ok false.
Proof.
  intros k l d H. apply Nat.eqb_neq in H. rewrite C15_isvector_five_forms. unfold Nd1; cbn [C15_ArgCheck.isvector].
  now rewrite shape_ok_1, H.
Qed.

Theorem C15_assertvector_wrong_length : forall k (l : list E) d, length l <> d ->
  assertvector (form5 k l) (Some d) = Err ValueError.
Proof. intros; unfold assertvector; now rewrite C15_isvector_wrong_length. Qed.

End Forms.
Print Assumptions C15_getvector_row_col_nd1.
Print Assumptions C15_getvector_tuple_list.
Print Assumptions C15_getvector_list_nd1.
Print Assumptions C15_getvector_scalar.
Print Assumptions C15_getvector_five_forms.
Print Assumptions C15_getvector_value.
Print Assumptions C15_wrong_length_ndarray.
Print Assumptions C15_matrix_rejected.
Print Assumptions C15_wrong_length_sequence.
Print Assumptions C15_wrong_length_five_forms.
Print Assumptions C15_wrong_length_scalar.
Print Assumptions C15_right_length_accepted.
Print Assumptions C15_other_rejected.
Print Assumptions C15_bad_out_rejected.
Print Assumptions C15_isvector_sound.
Print Assumptions C15_isvector_complete_with_dim.
Print Assumptions C15_isvector_complete_refuted.
Print Assumptions C15_isvector_complete_partial.
Print Assumptions C15_isvector_five_forms.
Print Assumptions C15_isvector_wrong_length.
Print Assumptions C15_assertvector_wrong_length.

(* getunit over any scalar type: degrees are radians times pi/180, any other unit string is an error *)
Section Units.
Context {T : Type} (O : ops T).
Theorem C15_getunit_deg_is_rad : forall a : T,
  getunit O a UDeg = getunit O (div O (mul O a (pi_f O)) (of_Z O 180%Z)) URad.
Proof. reflexivity. Qed.
Theorem C15_getunit_vec_deg_is_rad : forall l : list T,
  getunit_vec O l UDeg = getunit_vec O (map (fun a => div O (mul O a (pi_f O)) (of_Z O 180%Z)) l) URad.
Proof. reflexivity. Qed.
Theorem C15_getunit_vec_elementwise : forall (l : list T) u r,
  getunit_vec O l u = Ok r -> length r = length l /\ forall i d, getunit O (nth i l d) u = Ok (nth i r (match u with UDeg => deg2rad O d | _ => d end)).
Proof.
  intros l u r H; destruct u; inversion H; subst; split; try reflexivity.
  - apply map_length.
  - intros i d. cbn. now rewrite map_nth.
Qed.
Theorem C15_getunit_unknown_rejected : forall (a : T) (l : list T),
  getunit O a UOther = Err ValueError /\ getunit_vec O l UOther = Err ValueError.
Proof. split; reflexivity. Qed.
End Units.
Print Assumptions C15_getunit_deg_is_rad.
Print Assumptions C15_getunit_vec_deg_is_rad.
Print Assumptions C15_getunit_vec_elementwise.
Print Assumptions C15_getunit_unknown_rejected.
