(* C03 -- the closed form computed by trexp on so(3) IS the matrix exponential as defined by its power series (L-real).
   For a unit axis u and EVERY theta, entry by entry,
        Sum_{k>=0}  theta^k / k! * ([u]x^k)_ij   =   (rodrigues_th u theta)_ij        (Coquelicot [is_pseries] over Coq's Reals)
   where rodrigues_th is the so(3) branch of the hand model of trexp (Model/C03_ExpLog.v; tied to base.trexp / base.rodrigues on
   every run by the extracted-float correspondence and by bridge theorems to the concolic traces in Props/C03.v).
   No appeal to uniqueness of ODE solutions (Props/C03_ode.v) is needed.  C03_trexp_se3_is_expm_series does the same for all
   16 entries of the se(3) case, C03_trexp2_is_expm_series for the 9 entries of the planar case.
   Lemma library: theories/Model/C03_Series.v. *)
From Coq Require Import Reals Lra.
From Coquelicot Require Import Coquelicot.
From SM Require Import Base.Ops Base.Lin Base.RInst Base.RLin Model.C03_ExpLog Model.C03_Lemmas Model.C03_Ode Model.C03_Series.
From SMgen Require Import Consts_C03.
Open Scope R_scope.

Lemma C03_thr_ok' : thr_ok C03_thr.
Proof. unfold thr_ok, C03_thr. cbn. repeat split; lra. Qed.

Theorem C03_trexp_so3_is_expm_series : forall (u : V3 R) (th : R), normsq3 Rops u = 1 ->
  forall i j, (i < 3)%nat -> (j < 3)%nat ->
  is_pseries (fun k => e33 (mpow33 (skew3 Rops u) k) i j / INR (fact k)) th (e33 (rodrigues_th Rops u th) i j).
Proof. intros u th Hu i j _ _. exact (rodrigues_is_expm_series u th Hu i j). Qed.
Print Assumptions C03_trexp_so3_is_expm_series.

(* the same statement in the standard library's own vocabulary (Pser = infinite_sum of a_k * x^k) *)
Theorem C03_trexp_so3_is_expm_series_Reals : forall (u : V3 R) (th : R), normsq3 Rops u = 1 ->
  forall i j, (i < 3)%nat -> (j < 3)%nat ->
  Pser (fun k => e33 (mpow33 (skew3 Rops u) k) i j / INR (fact k)) th (e33 (rodrigues_th Rops u th) i j).
Proof. intros u th Hu i j _ _. apply is_pseries_Reals. exact (rodrigues_is_expm_series u th Hu i j). Qed.
Print Assumptions C03_trexp_so3_is_expm_series_Reals.

(* the same for the generator given WITHOUT theta: W = [theta u]x, any theta, |u| = 1 -- the exponential series of the matrix W itself
   (power series evaluated at 1) sums to Rodrigues(u, theta), which is what trexp returns for the vector w = theta u *)
Theorem C03_trexp_so3_general_is_expm_series : forall (u : V3 R) (th : R), normsq3 Rops u = 1 ->
  forall i j, (i < 3)%nat -> (j < 3)%nat ->
  is_series (fun k => e33 (mpow33 (skew3 Rops (vscale3 Rops th u)) k) i j / INR (fact k)) (e33 (rodrigues_th Rops u th) i j).
Proof.
  intros u th Hu i j _ _. pose proof (proj1 (is_pseries_R _ _ _) (rodrigues_is_exp_of_scaled_generator u th i j Hu)) as H.
  apply is_series_ext with (2 := H). intro n. unfold expm_coeff. rewrite pow1. apply Rmult_1_r.
Qed.
Print Assumptions C03_trexp_so3_general_is_expm_series.

(* se(3), all 16 entries: trexp(S, theta) on a unit twist S = (v, w), |w| = 1 (the model's [trexp_unit]: rotation block Rodrigues,
   translation V(theta) v, last row 0 0 0 1) is the sum of the exponential series of theta [S], [S] = se3_hat S the 4x4 twist matrix *)
Theorem C03_trexp_se3_is_expm_series : forall (v0 v1 v2 w0 w1 w2 th : R),
  normsq3 Rops (w0,w1,w2) = 1 ->
  let S := (v0,v1,v2,w0,w1,w2) in
  forall i j, (i < 4)%nat -> (j < 4)%nat ->
  is_pseries (fun k => e44 (mpow44 (se3_hat S) k) i j / INR (fact k)) th (e44 (trexp_unit Rops C03_thr S th) i j).
Proof.
  intros v0 v1 v2 w0 w1 w2 th Hw S i j _ _. exact (trexp_unit_is_expm_series C03_thr v0 v1 v2 w0 w1 w2 th C03_thr_ok' Hw i j).
Qed.
Print Assumptions C03_trexp_se3_is_expm_series.

(* ... and for the twist given WITHOUT theta: the exponential series of the 4x4 matrix [theta S] itself sums to trexp(S, theta), S a unit twist *)
Theorem C03_trexp_se3_general_is_expm_series : forall (v0 v1 v2 w0 w1 w2 th : R),
  normsq3 Rops (w0,w1,w2) = 1 ->
  forall i j, (i < 4)%nat -> (j < 4)%nat ->
  is_series (fun k => e44 (mpow44 (se3_hat (vscale6r th (v0,v1,v2,w0,w1,w2))) k) i j / INR (fact k))
            (e44 (trexp_unit Rops C03_thr (v0,v1,v2,w0,w1,w2) th) i j).
Proof.
  intros v0 v1 v2 w0 w1 w2 th Hw i j _ _. exact (trexp_unit_is_exp_of_scaled_twist C03_thr v0 v1 v2 w0 w1 w2 th i j C03_thr_ok' Hw).
Qed.
Print Assumptions C03_trexp_se3_general_is_expm_series.

(* 2-D: trexp2(S, theta) on a unit se(2) twist S = (t0, t1, w), w = +-1, all 9 entries; [S] = se2_hat S *)
Theorem C03_trexp2_is_expm_series : forall (t0 t1 w th : R), w * w = 1 ->
  let S := (t0,t1,w) in
  forall i j, (i < 3)%nat -> (j < 3)%nat ->
  is_pseries (fun k => e33 (mpow33 (se2_hat S) k) i j / INR (fact k)) th (e33 (trexp2_unit Rops C03_thr S th) i j).
Proof.
  intros t0 t1 w th Hw S i j _ _. exact (trexp2_unit_is_expm_series C03_thr t0 t1 w th C03_thr_ok' Hw i j).
Qed.
Print Assumptions C03_trexp2_is_expm_series.

(* non-vacuity: a unit axis, and the first terms of one entry: about z, entry (0,1) is -sin theta = -theta + theta^3/6 - ... *)
Example C03_series_nonvacuous :
  normsq3 Rops (0, 3/5, 4/5) = 1 /\
  e33 (mpow33 (skew3 Rops (0,0,1)) 1) 0 1 / INR (fact 1) = -1 /\
  e33 (mpow33 (skew3 Rops (0,0,1)) 2) 0 1 / INR (fact 2) = 0 /\
  e33 (mpow33 (skew3 Rops (0,0,1)) 3) 0 1 / INR (fact 3) = 1/6.
Proof.
  split; [autounfold with smlin; sm_simpl; field|].
  repeat split; cbn [mpow33]; autounfold with smlin; sm_simpl; cbn [e33 fact Nat.mul Nat.add INR]; simpl; field.
Qed.
