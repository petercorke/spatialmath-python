(* C20 -- history independence: every product / sum of a spatial-vector object is a function of its CURRENT value
   list only.  The model (Model/C20_Inertia.v: step, run, the obs_ functions) has no state besides the value list; on every run the
   implementation is driven through random histories (product; x[k]=v / append / extend / insert / pop / del / reverse /
   clear; product again; products of copies and indexed elements) and every result is compared with the stateless
   reference on the current values, and the value list after each history with [run] evaluated on tags by vm_compute.
   Here: the observations of the model are the traced single-/two-valued products, and they follow the list operations. *)
From Coq Require Import Reals ZArith Lra List Arith.
From SM Require Import Base.Ops Base.Lin Base.RInst Base.RLin Model.C20_Inertia.
From SMgen Require Import Traces_C20.
Import ListNotations.
Open Scope R_scope.

(* whatever the two histories were, objects with the same current values give the same results *)
Theorem C20_hist_value_only : forall (s1 s2 s s' : list (V6 R)) (h1 h2 : list (mut (V6 R))),
  run s1 h1 = Some s -> run s2 h2 = Some s' -> s = s' ->
  forall (M : M66 R) (m : V6 R) (t : list (V6 R)),
    obs_cross_left Rops s m = obs_cross_left Rops s' m /\ obs_crf_left Rops s m = obs_crf_left Rops s' m /\
    obs_apply Rops M s = obs_apply Rops M s' /\ obs_neg Rops s = obs_neg Rops s' /\
    obs_addsub (vadd6 Rops) s t = obs_addsub (vadd6 Rops) s' t /\ obs_addsub (vsub6 Rops) t s = obs_addsub (vsub6 Rops) t s'.
Proof. intros s1 s2 s s' h1 h2 _ _ -> M m t. repeat split. Qed.
Print Assumptions C20_hist_value_only.

(* the observations of a one-valued object are the traced products of that value *)
Theorem C20_hist_obs_are_traces : forall (v m : V6 R) (X : M44 R) (J : M66 R) (a b : V6 R),
  obs_cross_left Rops [v] m = Some (tr_crm Rops v m) /\ obs_crf_left Rops [v] m = Some (tr_crf_Frc Rops v m) /\
  obs_apply Rops (crm_ref Rops v) [a; b] = [tr_crm_2_0 Rops v a b; tr_crm_2_1 Rops v a b] /\
  obs_apply Rops (crf_ref Rops v) [a; b] = [tr_crf_2_0 Rops v a b; tr_crf_2_1 Rops v a b] /\
  obs_apply Rops (tr_Ad Rops X) [a; b] = [tr_se3_Vel_2_0 Rops X a b; tr_se3_Vel_2_1 Rops X a b] /\
  obs_apply Rops (mtr66 (tr_Ad Rops X)) [a; b] = [tr_se3_Frc_2_0 Rops X a b; tr_se3_Frc_2_1 Rops X a b] /\
  obs_apply Rops J [a; b] = [tr_I_acc_2_0 Rops J a b; tr_I_acc_2_1 Rops J a b] /\
  obs_neg Rops [a] = [tr_neg_Vel Rops a] /\ obs_addsub (vadd6 Rops) [a] [b] = Some [tr_add_Vel Rops a b] /\
  obs_addsub (vsub6 Rops) [a] [b] = Some [tr_sub_Vel Rops a b].
Proof.
  intros. unfold obs_cross_left, obs_crf_left, obs_apply, obs_neg, obs_addsub. cbn [map length Nat.eqb zip_with].
  repeat split; repeat (apply (f_equal Some) || apply (f_equal2 cons)); try reflexivity; gen_ring.
Qed.
Print Assumptions C20_hist_obs_are_traces.

(* replacing the value through the list interface: the product is that of the NEW value (no memory of the old one) *)
Theorem C20_hist_setitem_then_cross : forall (v w m : V6 R),
  run [v] [MSet 0 w] = Some [w] /\ run [v] [MPop 0; MAppend w] = Some [w] /\ run [v] [MClear; MAppend w] = Some [w] /\
  run [v] [MAppend w; MDel 0] = Some [w] /\ run [v] [MInsert 0 w; MPop 1] = Some [w] /\ run [v] [MAppend w; MReverse; MPop 1] = Some [w] /\
  obs_cross_left Rops [w] m = Some (tr_crm Rops w m).
Proof. intros. repeat split; try reflexivity. unfold obs_cross_left. f_equal. gen_ring. Qed.
Print Assumptions C20_hist_setitem_then_cross.

(* element-wise products follow the list operations, for every length *)
Theorem C20_hist_elementwise_follows_list : forall (M : M66 R) (s l : list (V6 R)) (w : V6 R),
  obs_apply Rops M (s ++ [w]) = obs_apply Rops M s ++ [mv66 Rops M w] /\
  obs_apply Rops M (s ++ l) = obs_apply Rops M s ++ obs_apply Rops M l /\
  obs_apply Rops M (rev s) = rev (obs_apply Rops M s) /\
  (forall k, obs_apply Rops M (firstn k s ++ w :: skipn k s) = firstn k (obs_apply Rops M s) ++ mv66 Rops M w :: skipn k (obs_apply Rops M s)) /\
  (forall k, obs_apply Rops M (firstn k s ++ skipn (S k) s) = firstn k (obs_apply Rops M s) ++ skipn (S k) (obs_apply Rops M s)) /\
  length (obs_apply Rops M s) = length s /\ obs_neg Rops (rev s) = rev (obs_neg Rops s).
Proof.
  intros. unfold obs_apply, obs_neg. repeat split.
  - rewrite map_app. reflexivity.
  - apply map_app.
  - apply map_rev.
  - intros k. rewrite map_app. simpl. rewrite firstn_map, skipn_map. reflexivity.
  - intros k. rewrite map_app. rewrite firstn_map, skipn_map. reflexivity.
  - apply map_length.
  - apply map_rev.
Qed.
Print Assumptions C20_hist_elementwise_follows_list.

Example C20_hist_run_nonvacuous :
  run [1%nat; 2%nat; 3%nat] [MSet 1 9%nat; MAppend 4%nat; MInsert 0 7%nat; MPop 2; MReverse; MExtend [5%nat; 6%nat]; MDel 0]
  = Some [3%nat; 1%nat; 7%nat; 5%nat; 6%nat] /\ run [1%nat] [MSet 1 2%nat] = None.
Proof. split; reflexivity. Qed.
