(* C05 (part c: axis-angle) -- tr2angvec is a right inverse of angvec2r on the general path.
   tr_angvec2r is the trace of the real angvec2r (regenerated every run); m_tr2angvec_general is the hand model
   Model/C05_Angvec.v of tr2angvec's general path (trlog general branch as repaired by /repo 84bd1d7: angle from
   atan2(|vex((R-R')/2)|, (tr R - 1)/2)), tied to the implementation by the float correspondence on rotations by
   1e-6 .. pi - 1e-6.  The identity / half-turn / tiny-angle paths are measured by the oracle only. *)
From Coq Require Import Reals Lra.
From SM Require Import Base.Ops Base.Lin Base.RInst Base.RLin Model.C05_Trig Model.C05_Angvec.
From SMgen Require Import Consts_C05 Traces_C05.
Open Scope R_scope.

Lemma C05c_angvec2r_is_rodrigues : forall (th : R) (v : V3 R), 0 < normsq3 Rops v ->
  tr_angvec2r Rops th v = rodrigues_ref th (vscale3 Rops (/ norm3 Rops v) v).
Proof.
  intros th v H. destruct v as [[v0 v1] v2]. unfold rodrigues_ref. autounfold with smgen smlin in *. sm_simpl.
  set (n2 := v0*v0 + v1*v1 + v2*v2) in *.
  assert (Hs : 0 < sqrt n2) by (apply sqrt_lt_R0; exact H).
  assert (Hss : sqrt n2 * sqrt n2 = n2) by (apply sqrt_sqrt; lra).
  set (s := sqrt n2) in *. clearbody s. clearbody n2. subst n2.
  tuple_eq ltac:(idtac).
  all: field; lra.
Qed.

(* RIGHT INVERSE, axis-angle, for every rotation with a non-zero skew part (rotation angle strictly between 0 and pi):
   the extracted angle is in (0, pi), the axis is a unit vector, and angvec2r rebuilds R exactly *)
Theorem C05_angvec_right_inverse : forall M : M33 R, SO3 M -> 0 < st2 M ->
  let '(th, a0, a1, a2) := m_tr2angvec_general Rops M in
  tr_angvec2r Rops th (a0, a1, a2) = M /\ 0 < th < PI /\ a0*a0 + a1*a1 + a2*a2 = 1.
Proof.
  intros M H Hst. pose proof (angvec_general_right_inverse M H Hst) as A. unfold m_tr2angvec_general.
  destruct (angvec_general Rops M) as [[[th a0] a1] a2]. destruct A as (A1 & A2 & A3).
  split; [|split; assumption].
  assert (N : normsq3 Rops (a0, a1, a2) = 1) by (autounfold with smlin; sm_simpl; lra).
  rewrite C05c_angvec2r_is_rodrigues by (rewrite N; lra).
  unfold norm3. rewrite N. cbn [sqrt_ Rops]. rewrite sqrt_1.
  replace (vscale3 Rops (/ 1) (a0, a1, a2)) with (a0, a1, a2) by (autounfold with smlin; sm_simpl; tuple_eq ltac:(field)).
  exact A1.
Qed.
Print Assumptions C05_angvec_right_inverse.
Example C05_angvec_nonvacuous : SO3 (rotz_cs Rops 0 1) /\ 0 < st2 (rotz_cs Rops 0 1).
Proof. split; [apply SO3_rotz; ring|]. unfold st2. lin_simpl. lra. Qed.

(* LEFT inverse too on this path: extraction recovers the angle and the axis the rotation was built from (traced angvec2r) *)
Theorem C05_angvec_recovers_angle : forall (th : R) (u : V3 R), 0 < th < PI -> normsq3 Rops u = 1 ->
  let '(u0,u1,u2) := u in
  m_tr2angvec_general Rops (tr_angvec2r Rops th u) = (th, u0, u1, u2).
Proof.
  intros th u Hth Hu. rewrite C05c_angvec2r_is_rodrigues by (rewrite Hu; lra).
  unfold norm3. rewrite Hu. cbn [sqrt_ Rops]. rewrite sqrt_1.
  pose proof (angvec_general_recovers th u Hth Hu) as A. destruct u as [[u0 u1] u2].
  replace (vscale3 Rops (/ 1) (u0, u1, u2)) with (u0, u1, u2) by (autounfold with smlin; sm_simpl; tuple_eq ltac:(field)).
  exact A.
Qed.
Print Assumptions C05_angvec_recovers_angle.

(* The quaternion route (UnitQuaternion.rpy / eul / angvec).
   The accessors extract from q.R.  tr_UQ_R is the trace of the real accessor UnitQuaternion.R, tr_q2r of base.q2r.
   Both double-cover representatives q and -q give the SAME matrix, a rotation for unit q: so every extraction through
   the quaternion class is independent of the sign of the scalar part, inherits the ranges proved for the matrix route
   (C05_rpy_ranges / C05_eul_ranges hold for every matrix), and for axis-angle: angle in (0, pi), unit axis, exact rebuild. *)
Definition qneg (q : V4 R) : V4 R := let '(s,x,y,z) := q in (-s, -x, -y, -z).

Theorem C05_quaternion_route_sign_independent : forall q : V4 R,
  tr_UQ_R Rops (qneg q) = tr_UQ_R Rops q /\ tr_q2r Rops (qneg q) = tr_q2r Rops q /\ tr_UQ_R Rops q = tr_q2r Rops q /\
  tr_q2r Rops q = q2r_ref Rops q.
Proof.
  intros q. destruct q as [[[s x] y] z]. unfold qneg.
  repeat split; autounfold with smgen smlin; sm_simpl; tuple_eq ltac:(ring).
Qed.
Print Assumptions C05_quaternion_route_sign_independent.

Theorem C05_quaternion_route_angvec : forall q : V4 R, qnormsq Rops q = 1 -> 0 < st2 (tr_UQ_R Rops q) ->
  let '(th, a0, a1, a2) := m_tr2angvec_general Rops (tr_UQ_R Rops q) in
  m_tr2angvec_general Rops (tr_UQ_R Rops (qneg q)) = (th, a0, a1, a2) /\
  tr_angvec2r Rops th (a0, a1, a2) = tr_UQ_R Rops q /\ 0 < th < PI /\ a0*a0 + a1*a1 + a2*a2 = 1.
Proof.
  intros q Hq Hst. destruct (C05_quaternion_route_sign_independent q) as (E1 & _ & E3 & E4).
  assert (HS : SO3 (tr_UQ_R Rops q)) by (rewrite E3, E4; apply SO3_q2r; exact Hq).
  pose proof (C05_angvec_right_inverse (tr_UQ_R Rops q) HS Hst) as A. rewrite E1.
  destruct (m_tr2angvec_general Rops (tr_UQ_R Rops q)) as [[[th a0] a1] a2]. split; [reflexivity|exact A].
Qed.
Print Assumptions C05_quaternion_route_angvec.
(* non-vacuity with a NEGATIVE scalar part: q = (-c, 0, 0, -s) is Rz by the angle with half-angle (c, s) *)
Example C05_quaternion_route_nonvacuous :
  let q := (- (3/5), 0, 0, - (4/5)) in qnormsq Rops q = 1 /\ 0 < st2 (tr_UQ_R Rops q).
Proof. cbv zeta. split; [autounfold with smlin; sm_simpl; field|]. unfold st2. autounfold with smgen. sm_simpl. lra. Qed.
