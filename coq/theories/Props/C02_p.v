(* C02 (part p) -- integer powers of the pose classes (SMPose.__pow__ as of /repo fbf47d0):
     X ** n  =  np.linalg.matrix_power(X.A, n)  for n >= 0,     X ** n  =  X.inv() ** (-n)  for n < 0,
   where X.inv() is the closed-form inverse of the class (transpose; [R', -R' t]).
   Model (Model/C02_Pow.v): mpow = iterated product, of the structured inverse when n < 0.
   The extracted T-num functions are the model (by computation).  The traces of the real `X ** n`, n = -4..4 (class
   operator executed on symbols) are the model, for ALL matrices (ring).  Laws that need no group membership (ANY matrix;
   the induction lemmas of Model/C02_Pow.v are axiom-free): X**0 = I, X**1 = X, X**(n+1) = X**n * X and
   X**(m+n) = X**m * X**n for m, n >= 0, X**-n = X.inv()**n, and for SO(n) the defect form  X**-n = (X**n)'  so that
   X**n * X**-n = P P'  with P = X**n.  On the groups (SO(2), SO(3), SE(2), SE(3) membership) the FULL power laws for every
   m, n in Z (the bundle `power_laws`); powers stay in the group and X**-n = (X**n).inv().  Without membership the
   mixed-sign law is false (_refuted witness).
   The model is also run against the implementation for every |n| <= 8 (T-num) on each run. *)
From Coq Require Import Reals ZArith Lra.
From SM Require Import Base.Ops Base.Lin Base.RInst Base.RLin Model.C02_Pow.
From SMgen Require Import Traces_C02.
Open Scope R_scope.

(* X ** n at a literal n, as the iterated product without the leading identity factor *)
Ltac pow_unfold := cbv beta iota delta [SO2_pow SO3_pow SE2_pow SE3_pow mpow pow_nat Z.ltb Z.compare Z.abs_nat
                                         Pos.to_nat Pos.iter_op Nat.add].
Ltac pow_ring := intros; pow_unfold; rewrite ?mmul22_I_l, ?mmul33_I_l; destruct_tuples; c02_unfold; repeat split; tuple_eq ltac:(ring).

(* SE(n) in block form (pow_nat_rt2, pow_nat_rt3): rotation block R^k, translation (R^(k-1) + ... + I) t *)
Ltac se_pow_ring :=
  intros; cbv beta iota delta [SE2_pow SE3_pow mpow Z.ltb Z.compare Z.abs_nat Pos.to_nat Pos.iter_op Nat.add];
  unfold sinv_aff3, aff3, sinv_aff4, aff4; rewrite ?pow_nat_rt2, ?pow_nat_rt3; cbn [pow_nat pow_transl2 pow_transl3];
  rewrite ?mmul22_I_l, ?mmul33_I_l; destruct_tuples; c02_unfold; repeat split; tuple_eq ltac:(ring).

Section Laws.
Variables (M : Type) (mul : M -> M -> M) (e : M) (inv : M -> M).
Hypothesis assoc : forall a b c, mul (mul a b) c = mul a (mul b c).
Hypothesis id_l : forall a, mul e a = a.
Hypothesis id_r : forall a, mul a e = a.
(* what holds for ANY element (no inverse property used) *)
Definition power_laws_nonneg (A : M) : Prop := forall m n : Z,
  mpow mul e inv A 0 = e /\ mpow mul e inv A 1 = A /\ mpow mul e inv A (-1) = inv A /\
  ((0 <= n)%Z -> mpow mul e inv A (n + 1) = mul (mpow mul e inv A n) A) /\
  ((0 <= m)%Z -> (0 <= n)%Z -> mpow mul e inv A (m + n) = mul (mpow mul e inv A m) (mpow mul e inv A n)) /\
  ((0 < n)%Z -> mpow mul e inv A (- n) = mpow mul e inv (inv A) n).
Lemma power_laws_nonneg_hold A : power_laws_nonneg A.
Proof.
  intros m n. repeat split.
  - apply mpow_1; assumption.
  - apply mpow_m1; assumption.
  - apply mpow_succ.
  - apply mpow_add_nonneg; assumption.
  - apply mpow_neg_is_pow_inv.
Qed.
(* the full laws, every m n : Z, given that inv A is a two-sided inverse of A *)
Definition power_laws (A : M) : Prop := forall m n : Z,
  mul (mpow mul e inv A n) (mpow mul e inv A (- n)) = e /\
  mul (mpow mul e inv A (- n)) (mpow mul e inv A n) = e /\
  mpow mul e inv A (m + n) = mul (mpow mul e inv A m) (mpow mul e inv A n).
Lemma power_laws_hold A : mul A (inv A) = e -> mul (inv A) A = e -> power_laws A.
Proof.
  intros H1 H2 m n. destruct (mpow_opp_inverse M mul e assoc id_l id_r inv A n H1 H2) as [L1 L2].
  repeat split; [ exact L1 | exact L2 | apply mpow_add; assumption ].
Qed.
End Laws.

Theorem C02_SO2_pw_is_model : forall X : M22 R,
  pw_SO2_m8 Rops X = SO2_pow Rops X (-8) /\
  pw_SO2_m7 Rops X = SO2_pow Rops X (-7) /\
  pw_SO2_m6 Rops X = SO2_pow Rops X (-6) /\
  pw_SO2_m5 Rops X = SO2_pow Rops X (-5) /\
  pw_SO2_m4 Rops X = SO2_pow Rops X (-4) /\
  pw_SO2_m3 Rops X = SO2_pow Rops X (-3) /\
  pw_SO2_m2 Rops X = SO2_pow Rops X (-2) /\
  pw_SO2_m1 Rops X = SO2_pow Rops X (-1) /\
  pw_SO2_p0 Rops X = SO2_pow Rops X (0) /\
  pw_SO2_p1 Rops X = SO2_pow Rops X (1) /\
  pw_SO2_p2 Rops X = SO2_pow Rops X (2) /\
  pw_SO2_p3 Rops X = SO2_pow Rops X (3) /\
  pw_SO2_p4 Rops X = SO2_pow Rops X (4) /\
  pw_SO2_p5 Rops X = SO2_pow Rops X (5) /\
  pw_SO2_p6 Rops X = SO2_pow Rops X (6) /\
  pw_SO2_p7 Rops X = SO2_pow Rops X (7) /\
  pw_SO2_p8 Rops X = SO2_pow Rops X (8).
Proof. intros; repeat split; reflexivity. Qed.
Print Assumptions C02_SO2_pw_is_model.

Theorem C02_SE2_pw_is_model : forall X : M33 R,
  pw_SE2_m8 Rops X = SE2_pow Rops X (-8) /\
  pw_SE2_m7 Rops X = SE2_pow Rops X (-7) /\
  pw_SE2_m6 Rops X = SE2_pow Rops X (-6) /\
  pw_SE2_m5 Rops X = SE2_pow Rops X (-5) /\
  pw_SE2_m4 Rops X = SE2_pow Rops X (-4) /\
  pw_SE2_m3 Rops X = SE2_pow Rops X (-3) /\
  pw_SE2_m2 Rops X = SE2_pow Rops X (-2) /\
  pw_SE2_m1 Rops X = SE2_pow Rops X (-1) /\
  pw_SE2_p0 Rops X = SE2_pow Rops X (0) /\
  pw_SE2_p1 Rops X = SE2_pow Rops X (1) /\
  pw_SE2_p2 Rops X = SE2_pow Rops X (2) /\
  pw_SE2_p3 Rops X = SE2_pow Rops X (3) /\
  pw_SE2_p4 Rops X = SE2_pow Rops X (4) /\
  pw_SE2_p5 Rops X = SE2_pow Rops X (5) /\
  pw_SE2_p6 Rops X = SE2_pow Rops X (6) /\
  pw_SE2_p7 Rops X = SE2_pow Rops X (7) /\
  pw_SE2_p8 Rops X = SE2_pow Rops X (8).
Proof. intros; repeat split; reflexivity. Qed.
Print Assumptions C02_SE2_pw_is_model.

Theorem C02_SO3_pw_is_model : forall X : M33 R,
  pw_SO3_m8 Rops X = SO3_pow Rops X (-8) /\
  pw_SO3_m7 Rops X = SO3_pow Rops X (-7) /\
  pw_SO3_m6 Rops X = SO3_pow Rops X (-6) /\
  pw_SO3_m5 Rops X = SO3_pow Rops X (-5) /\
  pw_SO3_m4 Rops X = SO3_pow Rops X (-4) /\
  pw_SO3_m3 Rops X = SO3_pow Rops X (-3) /\
  pw_SO3_m2 Rops X = SO3_pow Rops X (-2) /\
  pw_SO3_m1 Rops X = SO3_pow Rops X (-1) /\
  pw_SO3_p0 Rops X = SO3_pow Rops X (0) /\
  pw_SO3_p1 Rops X = SO3_pow Rops X (1) /\
  pw_SO3_p2 Rops X = SO3_pow Rops X (2) /\
  pw_SO3_p3 Rops X = SO3_pow Rops X (3) /\
  pw_SO3_p4 Rops X = SO3_pow Rops X (4) /\
  pw_SO3_p5 Rops X = SO3_pow Rops X (5) /\
  pw_SO3_p6 Rops X = SO3_pow Rops X (6) /\
  pw_SO3_p7 Rops X = SO3_pow Rops X (7) /\
  pw_SO3_p8 Rops X = SO3_pow Rops X (8).
Proof. intros; repeat split; reflexivity. Qed.
Print Assumptions C02_SO3_pw_is_model.

Theorem C02_SE3_pw_is_model : forall X : M44 R,
  pw_SE3_m8 Rops X = SE3_pow Rops X (-8) /\
  pw_SE3_m7 Rops X = SE3_pow Rops X (-7) /\
  pw_SE3_m6 Rops X = SE3_pow Rops X (-6) /\
  pw_SE3_m5 Rops X = SE3_pow Rops X (-5) /\
  pw_SE3_m4 Rops X = SE3_pow Rops X (-4) /\
  pw_SE3_m3 Rops X = SE3_pow Rops X (-3) /\
  pw_SE3_m2 Rops X = SE3_pow Rops X (-2) /\
  pw_SE3_m1 Rops X = SE3_pow Rops X (-1) /\
  pw_SE3_p0 Rops X = SE3_pow Rops X (0) /\
  pw_SE3_p1 Rops X = SE3_pow Rops X (1) /\
  pw_SE3_p2 Rops X = SE3_pow Rops X (2) /\
  pw_SE3_p3 Rops X = SE3_pow Rops X (3) /\
  pw_SE3_p4 Rops X = SE3_pow Rops X (4) /\
  pw_SE3_p5 Rops X = SE3_pow Rops X (5) /\
  pw_SE3_p6 Rops X = SE3_pow Rops X (6) /\
  pw_SE3_p7 Rops X = SE3_pow Rops X (7) /\
  pw_SE3_p8 Rops X = SE3_pow Rops X (8).
Proof. intros; repeat split; reflexivity. Qed.
Print Assumptions C02_SE3_pw_is_model.

Theorem C02_SO2_pow_traces : forall X : M22 R,
  tr_SO2_pow_p0 Rops X = SO2_pow Rops X (0) /\
  tr_SO2_pow_p1 Rops X = SO2_pow Rops X (1) /\
  tr_SO2_pow_p2 Rops X = SO2_pow Rops X (2) /\
  tr_SO2_pow_p3 Rops X = SO2_pow Rops X (3) /\
  tr_SO2_pow_p4 Rops X = SO2_pow Rops X (4).
Proof. pow_ring. Qed.
Print Assumptions C02_SO2_pow_traces.

(* negative exponents: the traced X.inv() ** (-n); no determinant, no hypothesis *)
Theorem C02_SO2_pow_traces_neg : forall X : M22 R,
  tr_SO2_pow_m4 Rops X = SO2_pow Rops X (-4) /\
  tr_SO2_pow_m3 Rops X = SO2_pow Rops X (-3) /\
  tr_SO2_pow_m2 Rops X = SO2_pow Rops X (-2) /\
  tr_SO2_pow_m1 Rops X = SO2_pow Rops X (-1).
Proof. pow_ring. Qed.
Print Assumptions C02_SO2_pow_traces_neg.

Theorem C02_SE2_pow_traces : forall X : M33 R,
  tr_SE2_pow_p0 Rops X = SE2_pow Rops X (0) /\
  tr_SE2_pow_p1 Rops X = SE2_pow Rops X (1) /\
  tr_SE2_pow_p2 Rops X = SE2_pow Rops X (2) /\
  tr_SE2_pow_p3 Rops X = SE2_pow Rops X (3) /\
  tr_SE2_pow_p4 Rops X = SE2_pow Rops X (4).
Proof. se_pow_ring. Qed.
Print Assumptions C02_SE2_pow_traces.

Theorem C02_SE2_pow_traces_neg : forall X : M33 R,
  tr_SE2_pow_m4 Rops X = SE2_pow Rops X (-4) /\
  tr_SE2_pow_m3 Rops X = SE2_pow Rops X (-3) /\
  tr_SE2_pow_m2 Rops X = SE2_pow Rops X (-2) /\
  tr_SE2_pow_m1 Rops X = SE2_pow Rops X (-1).
Proof. se_pow_ring. Qed.
Print Assumptions C02_SE2_pow_traces_neg.

Theorem C02_SO3_pow_traces : forall X : M33 R,
  tr_SO3_pow_p0 Rops X = SO3_pow Rops X (0) /\
  tr_SO3_pow_p1 Rops X = SO3_pow Rops X (1) /\
  tr_SO3_pow_p2 Rops X = SO3_pow Rops X (2) /\
  tr_SO3_pow_p3 Rops X = SO3_pow Rops X (3) /\
  tr_SO3_pow_p4 Rops X = SO3_pow Rops X (4).
Proof. pow_ring. Qed.
Print Assumptions C02_SO3_pow_traces.

Theorem C02_SO3_pow_traces_neg : forall X : M33 R,
  tr_SO3_pow_m4 Rops X = SO3_pow Rops X (-4) /\
  tr_SO3_pow_m3 Rops X = SO3_pow Rops X (-3) /\
  tr_SO3_pow_m2 Rops X = SO3_pow Rops X (-2) /\
  tr_SO3_pow_m1 Rops X = SO3_pow Rops X (-1).
Proof. pow_ring. Qed.
Print Assumptions C02_SO3_pow_traces_neg.

Theorem C02_SE3_pow_traces : forall X : M44 R,
  tr_SE3_pow_p0 Rops X = SE3_pow Rops X (0) /\
  tr_SE3_pow_p1 Rops X = SE3_pow Rops X (1) /\
  tr_SE3_pow_p2 Rops X = SE3_pow Rops X (2) /\
  tr_SE3_pow_p3 Rops X = SE3_pow Rops X (3) /\
  tr_SE3_pow_p4 Rops X = SE3_pow Rops X (4).
Proof. se_pow_ring. Qed.
Print Assumptions C02_SE3_pow_traces.

Theorem C02_SE3_pow_traces_neg : forall X : M44 R,
  tr_SE3_pow_m4 Rops X = SE3_pow Rops X (-4) /\
  tr_SE3_pow_m3 Rops X = SE3_pow Rops X (-3) /\
  tr_SE3_pow_m2 Rops X = SE3_pow Rops X (-2) /\
  tr_SE3_pow_m1 Rops X = SE3_pow Rops X (-1).
Proof. se_pow_ring. Qed.
Print Assumptions C02_SE3_pow_traces_neg.

Theorem C02_SO2_power_laws_any : forall X : M22 R, power_laws_nonneg _ (mmul22 Rops) (I22 Rops) (@mtr22 R) X.
Proof. intros X. apply power_laws_nonneg_hold; auto using mmul22_assoc, mmul22_I_l, mmul22_I_r. Qed.
Print Assumptions C02_SO2_power_laws_any.
Theorem C02_SO3_power_laws_any : forall X : M33 R, power_laws_nonneg _ (mmul33 Rops) (I33 Rops) (@mtr33 R) X.
Proof. intros X. apply power_laws_nonneg_hold; auto using mmul33_assoc, mmul33_I_l, mmul33_I_r. Qed.
Print Assumptions C02_SO3_power_laws_any.
Theorem C02_SE2_power_laws_any : forall X : M33 R,
  power_laws_nonneg _ (mmul33 Rops) (I33 Rops) (sinv_aff3 Rops) (aff3 Rops X).
Proof. intros X. apply power_laws_nonneg_hold; auto using mmul33_assoc, mmul33_I_l, mmul33_I_r. Qed.
Print Assumptions C02_SE2_power_laws_any.
Theorem C02_SE3_power_laws_any : forall X : M44 R,
  power_laws_nonneg _ (mmul44 Rops) (I44 Rops) (sinv_aff4 Rops) (aff4 Rops X).
Proof. intros X. apply power_laws_nonneg_hold; auto using mmul44_assoc, mmul44_I_l, mmul44_I_r. Qed.
Print Assumptions C02_SE3_power_laws_any.

(* defect form for the rotation classes, ANY matrix and EVERY integer n:  X ** -n = (X ** n)' , hence
   X**n * X**-n = P P' and X**-n * X**n = P' P with P = X**n: the residual is the orthogonality defect of X**n *)
Theorem C02_SO3_pow_neg_defect : forall (X : M33 R) (n : Z),
  SO3_pow Rops X (- n) = mtr33 (SO3_pow Rops X n) /\
  mmul33 Rops (SO3_pow Rops X n) (SO3_pow Rops X (- n)) = mmul33 Rops (SO3_pow Rops X n) (mtr33 (SO3_pow Rops X n)).
Proof.
  intros X n.
  assert (E : SO3_pow Rops X (- n) = mtr33 (SO3_pow Rops X n)).
  { apply (mpow_neg_antihom _ _ _ mmul33_assoc mmul33_I_l mmul33_I_r); [ exact mtr33_I | exact mtr33_mul | exact mtr33_invol ]. }
  split; [exact E | rewrite E; reflexivity].
Qed.
Print Assumptions C02_SO3_pow_neg_defect.

Theorem C02_SO2_pow_neg_defect : forall (X : M22 R) (n : Z),
  SO2_pow Rops X (- n) = mtr22 (SO2_pow Rops X n) /\
  mmul22 Rops (SO2_pow Rops X n) (SO2_pow Rops X (- n)) = mmul22 Rops (SO2_pow Rops X n) (mtr22 (SO2_pow Rops X n)).
Proof.
  intros X n.
  assert (E : SO2_pow Rops X (- n) = mtr22 (SO2_pow Rops X n)).
  { apply (mpow_neg_antihom _ _ _ mmul22_assoc mmul22_I_l mmul22_I_r); [ reflexivity | exact mtr22_mul | exact mtr22_invol ]. }
  split; [exact E | rewrite E; reflexivity].
Qed.
Print Assumptions C02_SO2_pow_neg_defect.

(* the FULL laws on the group, every m n : Z *)
(* X**n * X**-n = I = X**-n * X**n  and  X**(m+n) = X**m * X**n *)
Theorem C02_SO3_power_laws : forall X : M33 R, SO3 X -> power_laws _ (mmul33 Rops) (I33 Rops) (@mtr33 R) X.
Proof.
  intros X H. apply power_laws_hold; auto using mmul33_assoc, mmul33_I_l, mmul33_I_r, SO3_inv_r, SO3_inv_l.
Qed.
Print Assumptions C02_SO3_power_laws.

Theorem C02_SO2_power_laws : forall X : M22 R, SO2 X -> power_laws _ (mmul22 Rops) (I22 Rops) (@mtr22 R) X.
Proof.
  intros X H. apply power_laws_hold; auto using mmul22_assoc, mmul22_I_l, mmul22_I_r, SO2_inv_r, SO2_inv_l.
Qed.
Print Assumptions C02_SO2_power_laws.

Theorem C02_SE3_power_laws : forall X : M44 R, SE3 X ->
  power_laws _ (mmul44 Rops) (I44 Rops) (sinv_aff4 Rops) (aff4 Rops X).
Proof.
  intros X H. rewrite (aff4_SE3 X H).
  apply power_laws_hold; auto using mmul44_assoc, mmul44_I_l, mmul44_I_r; rewrite sinv_aff4_is_trinv;
    [apply SE3_inv_r | apply SE3_inv_l]; exact H.
Qed.
Print Assumptions C02_SE3_power_laws.

Definition trinv2_ref (A : M33 R) : M33 R :=
  rt2tr2 Rops (mtr22 (t2r2 A)) (vneg2 Rops (mv22 Rops (mtr22 (t2r2 A)) (transl2 A))).

Theorem C02_SE2_power_laws : forall X : M33 R, SE2 X ->
  power_laws _ (mmul33 Rops) (I33 Rops) (sinv_aff3 Rops) (aff3 Rops X).
Proof.
  intros X H. rewrite (aff3_SE2 X H).
  apply power_laws_hold; auto using mmul33_assoc, mmul33_I_l, mmul33_I_r; rewrite sinv_aff3_is_trinv2;
    [apply SE2_inv_r | apply SE2_inv_l]; exact H.
Qed.
Print Assumptions C02_SE2_power_laws.

(* powers of a group element stay in the group, and X ** -n is the .inv() of X ** n *)
Theorem C02_SO3_pow_group : forall (X : M33 R) (n : Z), SO3 X ->
  SO3 (SO3_pow Rops X n) /\ SO3_pow Rops X (- n) = mtr33 (SO3_pow Rops X n).
Proof.
  intros X n H.
  exact (mpow_subgroup _ _ _ mmul33_assoc mmul33_I_l mmul33_I_r _ SO3 X n SO3_I SO3_mul SO3_tr SO3_inv_r SO3_inv_l H).
Qed.
Print Assumptions C02_SO3_pow_group.

Theorem C02_SO2_pow_group : forall (X : M22 R) (n : Z), SO2 X ->
  SO2 (SO2_pow Rops X n) /\ SO2_pow Rops X (- n) = mtr22 (SO2_pow Rops X n).
Proof.
  intros X n H.
  exact (mpow_subgroup _ _ _ mmul22_assoc mmul22_I_l mmul22_I_r _ SO2 X n SO2_I SO2_mul SO2_tr SO2_inv_r SO2_inv_l H).
Qed.
Print Assumptions C02_SO2_pow_group.

Theorem C02_SE3_pow_group : forall (X : M44 R) (n : Z), SE3 X ->
  SE3 (SE3_pow Rops X n) /\ SE3_pow Rops X (- n) = trinv_ref (SE3_pow Rops X n).
Proof.
  intros X n H. unfold SE3_pow. rewrite (aff4_SE3 X H).
  exact (mpow_subgroup _ _ _ mmul44_assoc mmul44_I_l mmul44_I_r _ SE3 X n SE3_I SE3_mul SE3_inv SE3_inv_r SE3_inv_l H).
Qed.
Print Assumptions C02_SE3_pow_group.

Theorem C02_SE2_pow_group : forall (X : M33 R) (n : Z), SE2 X ->
  SE2 (SE2_pow Rops X n) /\ SE2_pow Rops X (- n) = trinv2_ref (SE2_pow Rops X n).
Proof.
  intros X n H. unfold SE2_pow. rewrite (aff3_SE2 X H).
  exact (mpow_subgroup _ _ _ mmul33_assoc mmul33_I_l mmul33_I_r _ SE2 X n SE2_I SE2_mul SE2_inv SE2_inv_r SE2_inv_l H).
Qed.
Print Assumptions C02_SE2_pow_group.

(* full statement "X**1 * X**-1 = I for ALL matrices" is false of the faithful model (the closed-form inverse of a
   non-orthogonal matrix is not its inverse); _partial = C02_SO3_power_laws (SO3 X ->), defect form above *)
Theorem C02_SO3_power_laws_all_matrices_refuted : exists X : M33 R,
  mmul33 Rops (SO3_pow Rops X 1) (SO3_pow Rops X (-1)) <> I33 Rops.
Proof.
  exists ((2,0,0),(0,1,0),(0,0,1)). pow_unfold. c02_unfold. intro H. injection H. intros. lra.
Qed.
Print Assumptions C02_SO3_power_laws_all_matrices_refuted.

(* non-vacuity: a non-trivial rotation / rigid motion meets the hypotheses, and its powers are not trivial *)
Example C02_p_nonvacuous :
  SO3 ((3/5, -4/5, 0), (4/5, 3/5, 0), (0, 0, 1)) /\
  SO3_pow Rops ((3/5, -4/5, 0), (4/5, 3/5, 0), (0, 0, 1)) 2 <> I33 Rops /\
  SO3_pow Rops ((3/5, -4/5, 0), (4/5, 3/5, 0), (0, 0, 1)) (-1) = ((3/5, 4/5, 0), (-4/5, 3/5, 0), (0, 0, 1)) /\
  SE3 ((3/5, -4/5, 0, 7), (4/5, 3/5, 0, -2), (0, 0, 1, 1/3), (0, 0, 0, 1)) /\
  SE3_pow Rops ((3/5, -4/5, 0, 7), (4/5, 3/5, 0, -2), (0, 0, 1, 1/3), (0, 0, 0, 1)) (-1) =
    ((3/5, 4/5, 0, -13/5), (-4/5, 3/5, 0, 34/5), (0, 0, 1, -1/3), (0, 0, 0, 1)) /\
  SE2 ((3/5, -4/5, 7), (4/5, 3/5, -2), (0, 0, 1)) /\ SO2 ((3/5, -4/5), (4/5, 3/5)).
Proof.
  repeat split; try (unfold SO3, SO2; lin_simpl; repeat split; lra); try reflexivity.
  - pow_unfold. c02_unfold. intro H. injection H. intros. lra.
  - pow_unfold. c02_unfold. tuple_eq ltac:(field).
  - pow_unfold. c02_unfold. tuple_eq ltac:(field).
Qed.
