(* C04 (c) -- rotation matrix -> quaternion (base.r2q, hand model Model/C04_R2q.v tied to the implementation by the
   numeric correspondence of every run) and back; constructors that go through r2q (RPY in each order, Eul; OA and the
   UnitQuaternion(SO3) / UnitQuaternion(matrix) constructors are the same composition); UnitDualQuaternion(SE3).SE3(). *)
From Coq Require Import Reals Lra Bool.
From SM Require Import Base.Ops Base.Lin Base.RInst Base.RLin Model.C04_R2q Model.C04_R2qProofs Model.C04_QuatRot
  Model.C05_Angles Model.C05_Proofs.
From SMgen Require Import Traces_C04.
Open Scope R_scope.

(* For every rotation matrix (since /repo 1cdf860 r2q takes the vector part from the skew part when trace > 0 and has
   no reachable degenerate exit): the round trip is exact, the result is
   a unit quaternion and its scalar part is >= 0 (so q and -q both come back as the same representative).
   This covers trace > 0 and, for trace <= 0, the three "largest diagonal" branches with either outcome of the sign test. *)
Theorem C04_r2q_roundtrip : forall A : M33 R, SO3 A ->
  q2r_ref Rops (r2q_100 Rops A) = A /\ qnormsq Rops (r2q_100 Rops A) = 1 /\ 0 <= fst (fst (fst (r2q_100 Rops A))).
Proof. exact r2q_roundtrip. Qed.
Print Assumptions C04_r2q_roundtrip.

(* the `abs(nm) < tol*_eps -> eye()` exit, only reachable when trace <= 0, is never taken by a rotation matrix *)
Theorem C04_r2q_degenerate_unreachable : forall A : M33 R, SO3 A -> r2q_trpos Rops A = false ->
  r2q_degenerate Rops (IZR 100) A = false.
Proof. exact r2q_degenerate_unreachable. Qed.
Print Assumptions C04_r2q_degenerate_unreachable.

(* the branch selector is total: every matrix falls in one of the three "largest diagonal" branches *)
Theorem C04_r2q_branch_total : forall A : M33 R, (r2q_branch Rops A <= 2)%nat.
Proof. intros A. destruct_tuples. unfold r2q_branch. repeat match goal with |- context [if ?b then _ else _] => destruct b end; auto. Qed.
Print Assumptions C04_r2q_branch_total.

Theorem C04_RPY_Eul_in_SO3 : forall a : V3 R,
  SO3 (tr_SO3_RPY_zyx Rops a) /\ SO3 (tr_SO3_RPY_xyz Rops a) /\ SO3 (tr_SO3_RPY_yxz Rops a) /\ SO3 (tr_SO3_Eul Rops a).
Proof.
  intros a. destruct (SO3_angle_refs a) as (H1 & H2 & H3 & H4). destruct a as [[r p] y].
  replace (tr_SO3_RPY_zyx Rops (r,p,y)) with (rpy2r_zyx_ref Rops (r,p,y)) by (unfold rpy2r_zyx_ref, Rz, Ry, Rx; gen_ring).
  replace (tr_SO3_RPY_xyz Rops (r,p,y)) with (rpy2r_xyz_ref Rops (r,p,y)) by (unfold rpy2r_xyz_ref, Rz, Ry, Rx; gen_ring).
  replace (tr_SO3_RPY_yxz Rops (r,p,y)) with (rpy2r_yxz_ref Rops (r,p,y)) by (unfold rpy2r_yxz_ref, Rz, Ry, Rx; gen_ring).
  replace (tr_SO3_Eul Rops (r,p,y)) with (eul2r_ref Rops (r,p,y)) by (unfold eul2r_ref, Rz, Ry, Rx; gen_ring).
  auto.
Qed.
Print Assumptions C04_RPY_Eul_in_SO3.

(* UnitQuaternion.RPY(a, order) = r2q(rpy2r(a, order)), UnitQuaternion.Eul(a) = r2q(eul2r(a)) (this composition is checked
   against the implementation on every run, oracle keys struct:...): it is the same rotation as SO3.RPY / SO3.Eul *)
Theorem C04_RPY_Eul_agree : forall a : V3 R,
  q2r_ref Rops (r2q_100 Rops (tr_SO3_RPY_zyx Rops a)) = tr_SO3_RPY_zyx Rops a /\
  q2r_ref Rops (r2q_100 Rops (tr_SO3_RPY_xyz Rops a)) = tr_SO3_RPY_xyz Rops a /\
  q2r_ref Rops (r2q_100 Rops (tr_SO3_RPY_yxz Rops a)) = tr_SO3_RPY_yxz Rops a /\
  q2r_ref Rops (r2q_100 Rops (tr_SO3_Eul Rops a)) = tr_SO3_Eul Rops a.
Proof.
  intros a. destruct (C04_RPY_Eul_in_SO3 a) as (H1 & H2 & H3 & H4).
  repeat split; apply r2q_roundtrip; assumption.
Qed.
Print Assumptions C04_RPY_Eul_agree.

(* named constructors agree also through r2q: r2q(rotx t) is UnitQuaternion.Rx t up to sign -- stated on the matrix side *)
Theorem C04_matrix_quaternion_matrix_Rx : forall t : R,
  q2r_ref Rops (r2q_100 Rops (tr_SO3_Rx Rops t)) = q2r_ref Rops (tr_UQ_Rx Rops t).
Proof.
  intros t. assert (E : tr_SO3_Rx Rops t = rotx_cs Rops (cos t) (sin t)) by gen_ring.
  destruct (r2q_roundtrip _ (eq_ind_r SO3 (SO3_rotx _ _ (cs_unit t)) E)) as [-> _]. rewrite E.
  gen_unfold. half_angle t. norm_one Hu. tuple_eq ltac:(ring).
Qed.
Print Assumptions C04_matrix_quaternion_matrix_Rx.

Theorem C04_UDQ_roundtrip : forall X : M44 R, SE3 X ->
  tr_UDQ_SE3 Rops (udq_of_T Rops X) = X.
Proof.
  intros X HX. destruct HX as [HR HL].
  destruct (r2q_roundtrip _ HR) as (E & U & _).
  rewrite (SE3_decompose X (conj HR HL)) at 2. rewrite <- E. clear E.
  unfold udq_of_T. generalize dependent (r2q_100 Rops (t2r3 X)). intros r U. clear HR.
  generalize (transl3 X). intros t. clear HL X.
  rewrite <- (dual_part_transl r t U) at 2.
  destruct_tuples. gen_unfold. norm_one U. tuple_eq ltac:(field).
Qed.
Print Assumptions C04_UDQ_roundtrip.

(* non-vacuity: rotations on both sides of trace = 0 are in SO(3), and r2q does not return the identity quaternion for them *)
Example C04_c_nonvacuous : SO3 (rotx_cs Rops (3/5) (4/5)) /\ SO3 (rotx_cs Rops (-4/5) (3/5)) /\
  r2q_trpos Rops (rotx_cs Rops (3/5) (4/5)) = true /\ r2q_trpos Rops (rotx_cs Rops (-4/5) (3/5)) = false /\
  r2q_100 Rops (rotx_cs Rops (-4/5) (3/5)) <> qone Rops.
Proof.
  assert (S1 : SO3 (rotx_cs Rops (3/5) (4/5))) by (apply SO3_rotx; lra).
  assert (S2 : SO3 (rotx_cs Rops (-4/5) (3/5))) by (apply SO3_rotx; lra).
  split; [exact S1|]. split; [exact S2|]. split; [|split].
  - unfold r2q_trpos, rotx_cs. cbn [ltb add one zero Rops]. apply Rltb_true. lra.
  - unfold r2q_trpos, rotx_cs. cbn [ltb add one zero Rops]. apply Rltb_false. lra.
  - intros E. destruct (r2q_roundtrip _ S2) as [Q _]. rewrite E in Q.
    unfold rotx_cs in Q. lin_simpl. injection Q; intros; lra.
Qed.
