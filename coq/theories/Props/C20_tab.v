(* C20 -- class / length tables of the spatial-vector layer.
   The dispatch model (Model/C20_Inertia.v) mirrors spatialvector.py as it is; on every run it is evaluated
   in Coq on every cell of the finite table and compared with the implementation's outcome on that cell.
   Here: the model agrees with what the property asks for, for ALL lengths (case analysis), the enumerated
   table by vm_compute.  On HEAD 66a8f3b the faithful model meets the full statements. *)
From Coq Require Import List Bool Arith Lia.
From SM Require Import Model.C20_Inertia.
Import ListNotations.

(* + and - : same class, same length only
   (every length, 0 included: since /repo 1105ad0 an empty list constructs an empty object) *)
Theorem C20_addsub_accepts : forall (l : svc) (n : nat), addsub_model l n (SV l) n = Value l n.
Proof.
  intros l n. unfold addsub_model. rewrite svc_eqb_refl.
  rewrite Nat.eqb_refl. reflexivity.
Qed.
Print Assumptions C20_addsub_accepts.

Theorem C20_addsub_rejects_mixed_class : forall (l : svc) (nl : nat) (r : rcls) (nr : nat),
  r <> SV l -> addsub_model l nl r nr = Raise TypeError.
Proof.
  intros l nl r nr H. unfold addsub_model. destruct r as [c|]; [|reflexivity].
  destruct (svc_eqb l c) eqn:E; [|reflexivity]. apply svc_eqb_spec in E. subst. congruence.
Qed.
Print Assumptions C20_addsub_rejects_mixed_class.

Theorem C20_addsub_rejects_unequal_length : forall (l : svc) (nl nr : nat),
  nl <> nr -> addsub_model l nl (SV l) nr = Raise ValueError.
Proof.
  intros l nl nr H. unfold addsub_model. rewrite svc_eqb_refl.
  apply Nat.eqb_neq in H. rewrite H. reflexivity.
Qed.
Print Assumptions C20_addsub_rejects_unequal_length.

(* a value is produced only for the same class and equal lengths, and it has the left operand's class and length *)
Theorem C20_addsub_value_iff : forall l nl r nr c n,
  addsub_model l nl r nr = Value c n <-> (r = SV l /\ nl = nr /\ c = l /\ n = nl).
Proof.
  intros l nl r nr c n. split.
  - unfold addsub_model. destruct r as [c'|]; [|discriminate].
    destruct (svc_eqb l c') eqn:E; [|discriminate]. apply svc_eqb_spec in E. subst c'.
    destruct (Nat.eqb nl nr) eqn:L; [|discriminate]. apply Nat.eqb_eq in L. subst nr.
    unfold construct. intros H; injection H; intros; subst. repeat split.
  - intros (-> & -> & -> & ->). apply C20_addsub_accepts.
Qed.
Print Assumptions C20_addsub_value_iff.

Example C20_addsub_nonvacuous :
  addsub_model Frc 3 (SV Frc) 3 = Value Frc 3 /\ addsub_model Frc 3 (SV Mom) 3 = Raise TypeError /\
  addsub_model Vel 1 (SV Vel) 2 = Raise ValueError /\ addsub_model Vel 1 NotSV 1 = Raise TypeError.
Proof. repeat split. Qed.

(* the enumerated table (4 classes x lengths {0,1,2,3,6} x (4 classes + a non-spatial operand) x lengths): 500 cells *)
Theorem C20_addsub_table : length addsub_cells = 500%nat /\
  forallb (fun '(l, nl, r, nr) => agrees (addsub_model l nl r nr) (addsub_expected l nl r nr)) addsub_cells = true.
Proof. split; vm_compute; reflexivity. Qed.
Print Assumptions C20_addsub_table.

(* the in-place forms x += y, x -= y have the table of + and - (before /repo 5371e50 `+=` was the inherited list
   concatenation: any same-class operand was accepted and the lengths added up) *)
Theorem C20_inplace_same_table : forall l nl r nr,
  inplace_model l nl r nr = addsub_model l nl r nr /\
  (inplace_model l nl r nr = Value l nl <-> r = SV l /\ nl = nr) /\
  agrees (inplace_model l nl r nr) (addsub_expected l nl r nr) = true.
Proof.
  intros l nl r nr. split; [reflexivity|]. split.
  - unfold inplace_model. rewrite (C20_addsub_value_iff l nl r nr l nl). tauto.
  - unfold inplace_model, addsub_model, addsub_expected, construct, agrees. destruct r as [c|]; [|reflexivity].
    destruct (svc_eqb l c) eqn:E; [|reflexivity]. destruct (Nat.eqb nl nr) eqn:L; simpl; [|reflexivity].
    rewrite svc_eqb_refl. rewrite Nat.eqb_refl. reflexivity.
Qed.
Print Assumptions C20_inplace_same_table.

Theorem C20_neg_copy_keep_class : forall l n, neg_model l n = Value l n /\ copy_model l n = Value l n.
Proof. intros l n. split; reflexivity. Qed.
Print Assumptions C20_neg_copy_keep_class.

(* cross product: operand classes, n-valued right operand;
   a motion vector crossed with ANY motion vector (velocity or acceleration) gives a motion vector, crossed with a force
   vector a force vector, one per value of the right operand; everything else is rejected.
   (Before /repo 66a8f3b the code tested isinstance(other, SpatialVelocity) and rejected an acceleration operand.) *)
Theorem C20_cross_table_full : forall l r n, agrees (cross_model l r n) (cross_expected l r n) = true.
Proof.
  intros l r n. destruct l; destruct r as [[| | |]|]; try reflexivity;
    unfold cross_model, cross_expected, construct, agrees, is_motion; simpl; rewrite Nat.eqb_refl; reflexivity.
Qed.
Print Assumptions C20_cross_table_full.

Theorem C20_cross_table : length cross_cells = 100%nat /\
  forallb (fun '(l, r, n) => agrees (cross_model l r n) (cross_expected l r n)) cross_cells = true.
Proof. split; vm_compute; reflexivity. Qed.
Print Assumptions C20_cross_table.

(* force classes have no cross product at all; motion x* force is a force for both force classes; one result per value *)
Theorem C20_cross_classes : forall r n,
  (exists e, cross_model Frc r n = Raise e) /\ (exists e, cross_model Mom r n = Raise e) /\
  cross_model Vel (SV Vel) n = Value Acc n /\ cross_model Vel (SV Acc) n = Value Acc n /\ cross_model Vel (SV Frc) n = Value Frc n /\ cross_model Vel (SV Mom) n = Value Frc n.
Proof. intros r n. repeat split; eexists; reflexivity. Qed.
Print Assumptions C20_cross_classes.

(* inertia * vector, SE3 * vector: result classes, every length *)
Theorem C20_imul_classes : forall r n, agrees (imul_model r n) (imul_expected r n) = true.
Proof. intros [[| | |]|] n; try reflexivity; unfold imul_model, imul_expected, construct, agrees; simpl; rewrite Nat.eqb_refl; reflexivity. Qed.
Print Assumptions C20_imul_classes.

Theorem C20_imul_force_momentum : forall n,
  imul_model (SV Acc) n = Value Frc n /\ imul_model (SV Vel) n = Value Mom n /\
  forall r, r <> SV Acc -> r <> SV Vel -> imul_model r n = Raise TypeError.
Proof. intros n. repeat split. intros [[| | |]|] H1 H2; try reflexivity; congruence. Qed.
Print Assumptions C20_imul_force_momentum.

Theorem C20_se3mul_keeps_class : forall c n, se3mul_model c n = Value c n.
Proof. reflexivity. Qed.
Print Assumptions C20_se3mul_keeps_class.

(* inertia + inertia:
   two inertias are accepted and give their sum (the value is inertia_add = matrix sum, see C20_inertia.v:
   C20_inertia_add_is_sum, C20_inertia_sum_is_composite); anything else is rejected with TypeError.
   (Before /repo commit 2cebac9 the code evaluated `left.I` and always raised.) *)
Theorem C20_inertia_add : forall b, iadd_model b = iadd_expected b.
Proof. intros [|]; reflexivity. Qed.
Print Assumptions C20_inertia_add.

Theorem C20_inertia_add_cases : iadd_model true = ISum /\ iadd_model false = IRaise TypeError.
Proof. split; reflexivity. Qed.
Print Assumptions C20_inertia_add_cases.
