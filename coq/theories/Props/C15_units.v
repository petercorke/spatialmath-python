(* C15 -- units and call forms are interchangeable.
   The tr_* definitions are REGENERATED on every run by executing the library on SymPy symbols
   (props/C15.py build(); math.pi is traced as the symbol pi_f of the ops record).
   Statements are fixed.  L-real: pi_f is PI.
     deg/rad    : f(a, unit='deg') and f(a*pi/180, unit='rad') are the same function of a
     call forms : separate scalars, list, tuple and ndarray give the same matrix
     aliases    : 'arm'='xyz', 'vehicle'='zyx', 'camera'='yxz' *)
From Coq Require Import Reals ZArith Lra.
From SM Require Import Base.Ops Base.Lin Base.RInst Base.RLin Model.C15_ArgCheck.
From SMgen Require Import Traces_C15.
Open Scope R_scope.

(* bring every sin/cos argument that mentions a to the form a*(PI/180): field does not care how the trace writes
   the degree factor, and is only asked about arguments in a; the entries are then compared with ring *)
Ltac fix_arg a :=
  repeat match goal with
  | |- context [sin ?x] => lazymatch x with (a * (PI / 180)) => fail | context [a] => replace x with (a * (PI / 180)) by field end
  | |- context [cos ?x] => lazymatch x with (a * (PI / 180)) => fail | context [a] => replace x with (a * (PI / 180)) by field end
  end.
Ltac open_traces := intros; destruct_tuples; gen_unfold.
Ltac units1 a := open_traces; fix_arg a; tuple_eq ltac:(ring).
Ltac units3 a b c := open_traces; fix_arg a; fix_arg b; fix_arg c; tuple_eq ltac:(ring).

Theorem C15_deg_rad_rot3 :
  forall a : R,
  tr_rotx_deg Rops a = tr_rotx_rad Rops (a * PI / 180) /\
  tr_roty_deg Rops a = tr_roty_rad Rops (a * PI / 180) /\
  tr_rotz_deg Rops a = tr_rotz_rad Rops (a * PI / 180).
Proof. intros; repeat split; units1 a. Qed.
Print Assumptions C15_deg_rad_rot3.

Theorem C15_deg_rad_rot2 :
  forall a : R,
  tr_rot2_deg Rops a = tr_rot2_rad Rops (a * PI / 180) /\
  tr_trot2_deg Rops a = tr_trot2_rad Rops (a * PI / 180) /\
  tr_SO2_deg Rops a = tr_SO2_rad Rops (a * PI / 180) /\
  tr_SE2_theta_deg Rops a = tr_SE2_theta_rad Rops (a * PI / 180).
Proof. intros; repeat split; units1 a. Qed.
Print Assumptions C15_deg_rad_rot2.

Theorem C15_deg_rad_trot3 :
  forall a : R,
  tr_trotx_deg Rops a = tr_trotx_rad Rops (a * PI / 180) /\
  tr_troty_deg Rops a = tr_troty_rad Rops (a * PI / 180) /\
  tr_trotz_deg Rops a = tr_trotz_rad Rops (a * PI / 180).
Proof. intros; repeat split; units1 a. Qed.
Print Assumptions C15_deg_rad_trot3.

Theorem C15_deg_rad_SO3_R :
  forall a : R,
  tr_SO3_Rx_deg Rops a = tr_SO3_Rx_rad Rops (a * PI / 180) /\
  tr_SO3_Ry_deg Rops a = tr_SO3_Ry_rad Rops (a * PI / 180) /\
  tr_SO3_Rz_deg Rops a = tr_SO3_Rz_rad Rops (a * PI / 180).
Proof. intros; repeat split; units1 a. Qed.
Print Assumptions C15_deg_rad_SO3_R.

Theorem C15_deg_rad_SE3_R :
  forall a : R,
  tr_SE3_Rx_deg Rops a = tr_SE3_Rx_rad Rops (a * PI / 180) /\
  tr_SE3_Ry_deg Rops a = tr_SE3_Ry_rad Rops (a * PI / 180) /\
  tr_SE3_Rz_deg Rops a = tr_SE3_Rz_rad Rops (a * PI / 180).
Proof. intros; repeat split; units1 a. Qed.
Print Assumptions C15_deg_rad_SE3_R.

Theorem C15_getunit_deg :
  forall a : R, tr_getunit_deg Rops a = a * PI / 180.
Proof. open_traces; field. Qed.
Print Assumptions C15_getunit_deg.

Theorem C15_getunit_vec_deg :
  forall g0 g1 g2 : R,
  tr_getunit_nd_deg Rops (g0, g1, g2) = (g0 * PI / 180, g1 * PI / 180, g2 * PI / 180) /\
  tr_getunit_list_deg Rops (g0, g1, g2) = tr_getunit_nd_deg Rops (g0, g1, g2).
Proof. intros; split; open_traces; tuple_eq ltac:(field). Qed.
Print Assumptions C15_getunit_vec_deg.

Theorem C15_deg_rad_with_translation :
  forall (a : R) (t : V3 R) (t2 : V2 R),
  tr_trotx_t_deg Rops a t = tr_trotx_t_rad Rops (a * PI / 180) t /\
  tr_troty_t_deg Rops a t = tr_troty_t_rad Rops (a * PI / 180) t /\
  tr_trotz_t_deg Rops a t = tr_trotz_t_rad Rops (a * PI / 180) t /\
  tr_SE3_Rx_t_deg Rops a t = tr_SE3_Rx_t_rad Rops (a * PI / 180) t /\
  tr_trot2_t_deg Rops a t2 = tr_trot2_t_rad Rops (a * PI / 180) t2.
Proof. intros; repeat split; units1 a. Qed.
Print Assumptions C15_deg_rad_with_translation.

Theorem C15_deg_rad_rpy2r :
  forall g0 g1 g2 : R,
  tr_rpy2r_zyx_deg Rops (g0, g1, g2) = tr_rpy2r_zyx_rad Rops (g0 * PI / 180, g1 * PI / 180, g2 * PI / 180) /\
  tr_rpy2r_xyz_deg Rops (g0, g1, g2) = tr_rpy2r_xyz_rad Rops (g0 * PI / 180, g1 * PI / 180, g2 * PI / 180) /\
  tr_rpy2r_yxz_deg Rops (g0, g1, g2) = tr_rpy2r_yxz_rad Rops (g0 * PI / 180, g1 * PI / 180, g2 * PI / 180).
Proof. intros; repeat split; units3 g0 g1 g2. Qed.
Print Assumptions C15_deg_rad_rpy2r.

Theorem C15_deg_rad_rpy2tr :
  forall g0 g1 g2 : R,
  tr_rpy2tr_zyx_deg Rops (g0, g1, g2) = tr_rpy2tr_zyx_rad Rops (g0 * PI / 180, g1 * PI / 180, g2 * PI / 180) /\
  tr_rpy2tr_xyz_deg Rops (g0, g1, g2) = tr_rpy2tr_xyz_rad Rops (g0 * PI / 180, g1 * PI / 180, g2 * PI / 180) /\
  tr_rpy2tr_yxz_deg Rops (g0, g1, g2) = tr_rpy2tr_yxz_rad Rops (g0 * PI / 180, g1 * PI / 180, g2 * PI / 180).
Proof. intros; repeat split; units3 g0 g1 g2. Qed.
Print Assumptions C15_deg_rad_rpy2tr.

Theorem C15_deg_rad_eul :
  forall g0 g1 g2 : R,
  tr_eul2r_deg Rops (g0, g1, g2) = tr_eul2r_rad Rops (g0 * PI / 180, g1 * PI / 180, g2 * PI / 180) /\
  tr_eul2tr_deg Rops (g0, g1, g2) = tr_eul2tr_rad Rops (g0 * PI / 180, g1 * PI / 180, g2 * PI / 180) /\
  tr_SO3_Eul_deg Rops (g0, g1, g2) = tr_SO3_Eul_rad Rops (g0 * PI / 180, g1 * PI / 180, g2 * PI / 180) /\
  tr_SE3_Eul_deg Rops (g0, g1, g2) = tr_SE3_Eul_rad Rops (g0 * PI / 180, g1 * PI / 180, g2 * PI / 180).
Proof. intros; repeat split; units3 g0 g1 g2. Qed.
Print Assumptions C15_deg_rad_eul.

Theorem C15_deg_rad_SO3_RPY :
  forall g0 g1 g2 : R,
  tr_SO3_RPY_zyx_deg Rops (g0, g1, g2) = tr_SO3_RPY_zyx_rad Rops (g0 * PI / 180, g1 * PI / 180, g2 * PI / 180) /\
  tr_SO3_RPY_xyz_deg Rops (g0, g1, g2) = tr_SO3_RPY_xyz_rad Rops (g0 * PI / 180, g1 * PI / 180, g2 * PI / 180) /\
  tr_SO3_RPY_yxz_deg Rops (g0, g1, g2) = tr_SO3_RPY_yxz_rad Rops (g0 * PI / 180, g1 * PI / 180, g2 * PI / 180).
Proof. intros; repeat split; units3 g0 g1 g2. Qed.
Print Assumptions C15_deg_rad_SO3_RPY.

Theorem C15_deg_rad_SE3_RPY :
  forall g0 g1 g2 : R,
  tr_SE3_RPY_zyx_deg Rops (g0, g1, g2) = tr_SE3_RPY_zyx_rad Rops (g0 * PI / 180, g1 * PI / 180, g2 * PI / 180) /\
  tr_SE3_RPY_xyz_deg Rops (g0, g1, g2) = tr_SE3_RPY_xyz_rad Rops (g0 * PI / 180, g1 * PI / 180, g2 * PI / 180) /\
  tr_SE3_RPY_yxz_deg Rops (g0, g1, g2) = tr_SE3_RPY_yxz_rad Rops (g0 * PI / 180, g1 * PI / 180, g2 * PI / 180).
Proof. intros; repeat split; units3 g0 g1 g2. Qed.
Print Assumptions C15_deg_rad_SE3_RPY.

Theorem C15_deg_rad_xyt :
  forall x y a : R,
  tr_xyt2tr_deg Rops (x, y, a) = tr_xyt2tr_rad Rops (x, y, a * PI / 180) /\
  tr_SE2_list_deg Rops (x, y, a) = tr_SE2_list_rad Rops (x, y, a * PI / 180) /\
  tr_SE2_s_deg Rops x y a = tr_SE2_s_rad Rops x y (a * PI / 180).
Proof. intros; repeat split; units1 a. Qed.
Print Assumptions C15_deg_rad_xyt.

Theorem C15_deg_rad_angvec :
  forall (a : R) (v : V3 R),
  tr_angvec2r_deg Rops a v = tr_angvec2r_rad Rops (a * PI / 180) v /\
  tr_SO3_AngVec_deg Rops a v = tr_SO3_AngVec_rad Rops (a * PI / 180) v.
Proof. intros; repeat split; units1 a. Qed.
Print Assumptions C15_deg_rad_angvec.

Theorem C15_order_aliases_rad :
  forall g : V3 R,
  tr_rpy2r_vehicle_rad Rops g = tr_rpy2r_zyx_rad Rops g /\
  tr_rpy2r_arm_rad Rops g = tr_rpy2r_xyz_rad Rops g /\
  tr_rpy2r_camera_rad Rops g = tr_rpy2r_yxz_rad Rops g /\
  tr_rpy2tr_vehicle_rad Rops g = tr_rpy2tr_zyx_rad Rops g /\
  tr_rpy2tr_arm_rad Rops g = tr_rpy2tr_xyz_rad Rops g /\
  tr_rpy2tr_camera_rad Rops g = tr_rpy2tr_yxz_rad Rops g.
Proof. repeat split; gen_ring. Qed.
Print Assumptions C15_order_aliases_rad.

Theorem C15_order_aliases_deg :
  forall g : V3 R,
  tr_rpy2r_vehicle_deg Rops g = tr_rpy2r_zyx_deg Rops g /\
  tr_rpy2r_arm_deg Rops g = tr_rpy2r_xyz_deg Rops g /\
  tr_rpy2r_camera_deg Rops g = tr_rpy2r_yxz_deg Rops g /\
  tr_rpy2tr_vehicle_deg Rops g = tr_rpy2tr_zyx_deg Rops g /\
  tr_rpy2tr_arm_deg Rops g = tr_rpy2tr_xyz_deg Rops g /\
  tr_rpy2tr_camera_deg Rops g = tr_rpy2tr_yxz_deg Rops g.
Proof. repeat split; gen_ring. Qed.
Print Assumptions C15_order_aliases_deg.

Example C15_orders_distinct : tr_rpy2r_zyx_rad Rops (PI/2, PI/2, 0) <> tr_rpy2r_xyz_rad Rops (PI/2, PI/2, 0).
Proof.
  autounfold with smgen; sm_simpl. rewrite ?sin_PI2, ?cos_PI2, ?sin_0, ?cos_0. intros H.
  apply (f_equal (fun m => fst (fst (snd m)))) in H. cbn in H. lra.
Qed.

Theorem C15_scalars_vs_packed_angles_rad :
  forall r p y : R,
  tr_rpy2r_s_zyx_rad Rops r p y = tr_rpy2r_zyx_rad Rops (r, p, y) /\
  tr_rpy2r_s_xyz_rad Rops r p y = tr_rpy2r_xyz_rad Rops (r, p, y) /\
  tr_rpy2r_s_yxz_rad Rops r p y = tr_rpy2r_yxz_rad Rops (r, p, y) /\
  tr_rpy2tr_s_zyx_rad Rops r p y = tr_rpy2tr_zyx_rad Rops (r, p, y) /\
  tr_rpy2tr_s_xyz_rad Rops r p y = tr_rpy2tr_xyz_rad Rops (r, p, y) /\
  tr_rpy2tr_s_yxz_rad Rops r p y = tr_rpy2tr_yxz_rad Rops (r, p, y) /\
  tr_eul2r_s_rad Rops r p y = tr_eul2r_rad Rops (r, p, y) /\
  tr_eul2tr_s_rad Rops r p y = tr_eul2tr_rad Rops (r, p, y).
Proof. repeat split; gen_ring. Qed.
Print Assumptions C15_scalars_vs_packed_angles_rad.

Theorem C15_scalars_vs_packed_angles_deg :
  forall r p y : R,
  tr_rpy2r_s_zyx_deg Rops r p y = tr_rpy2r_zyx_deg Rops (r, p, y) /\
  tr_rpy2r_s_xyz_deg Rops r p y = tr_rpy2r_xyz_deg Rops (r, p, y) /\
  tr_rpy2r_s_yxz_deg Rops r p y = tr_rpy2r_yxz_deg Rops (r, p, y) /\
  tr_rpy2tr_s_zyx_deg Rops r p y = tr_rpy2tr_zyx_deg Rops (r, p, y) /\
  tr_rpy2tr_s_xyz_deg Rops r p y = tr_rpy2tr_xyz_deg Rops (r, p, y) /\
  tr_rpy2tr_s_yxz_deg Rops r p y = tr_rpy2tr_yxz_deg Rops (r, p, y) /\
  tr_eul2r_s_deg Rops r p y = tr_eul2r_deg Rops (r, p, y) /\
  tr_eul2tr_s_deg Rops r p y = tr_eul2tr_deg Rops (r, p, y).
Proof. repeat split; gen_ring. Qed.
Print Assumptions C15_scalars_vs_packed_angles_deg.

Theorem C15_scalars_vs_packed_transl :
  forall x y z : R,
  tr_transl_s Rops x y z = tr_transl_v Rops (x, y, z) /\
  tr_transl_list Rops (x, y, z) = tr_transl_v Rops (x, y, z) /\
  tr_transl2_s Rops x y = tr_transl2_v Rops (x, y) /\
  tr_transl2_list Rops (x, y) = tr_transl2_v Rops (x, y).
Proof. repeat split; gen_ring. Qed.
Print Assumptions C15_scalars_vs_packed_transl.

Theorem C15_scalars_vs_packed_SE3 :
  forall x y z : R,
  tr_SE3_s Rops x y z = tr_SE3_nd Rops (x, y, z) /\
  tr_SE3_list Rops (x, y, z) = tr_SE3_nd Rops (x, y, z) /\
  tr_SE3_nd Rops (x, y, z) = tr_transl_v Rops (x, y, z).
Proof. repeat split; gen_ring. Qed.
Print Assumptions C15_scalars_vs_packed_SE3.

Theorem C15_scalars_vs_packed_SE2_rad :
  forall x y a : R,
  tr_SE2_s_rad Rops x y a = tr_SE2_nd_rad Rops (x, y, a) /\
  tr_SE2_list_rad Rops (x, y, a) = tr_SE2_nd_rad Rops (x, y, a) /\
  tr_SE2_tuple_rad Rops (x, y, a) = tr_SE2_nd_rad Rops (x, y, a) /\
  tr_SE2_nd_rad Rops (x, y, a) = tr_xyt2tr_rad Rops (x, y, a).
Proof. repeat split; gen_ring. Qed.
Print Assumptions C15_scalars_vs_packed_SE2_rad.

Theorem C15_scalars_vs_packed_SE2_deg :
  forall x y a : R,
  tr_SE2_s_deg Rops x y a = tr_SE2_nd_deg Rops (x, y, a) /\
  tr_SE2_list_deg Rops (x, y, a) = tr_SE2_nd_deg Rops (x, y, a) /\
  tr_SE2_tuple_deg Rops (x, y, a) = tr_SE2_nd_deg Rops (x, y, a) /\
  tr_SE2_nd_deg Rops (x, y, a) = tr_xyt2tr_deg Rops (x, y, a).
Proof. repeat split; gen_ring. Qed.
Print Assumptions C15_scalars_vs_packed_SE2_deg.

Theorem C15_scalars_vs_packed_SE2_xy :
  forall x y : R,
  tr_SE2_xy_s Rops x y = tr_SE2_xy_list Rops (x, y) /\ tr_SE2_xy_list Rops (x, y) = tr_transl2_v Rops (x, y).
Proof. repeat split; gen_ring. Qed.
Print Assumptions C15_scalars_vs_packed_SE2_xy.

Theorem C15_class_is_base_rad :
  forall g : V3 R,
  tr_SO3_RPY_nd_zyx_rad Rops g = tr_SO3_RPY_zyx_rad Rops g /\ tr_SO3_RPY_zyx_rad Rops g = tr_rpy2r_zyx_rad Rops g /\ tr_SE3_RPY_zyx_rad Rops g = tr_rpy2tr_zyx_rad Rops g /\
  tr_SO3_RPY_nd_xyz_rad Rops g = tr_SO3_RPY_xyz_rad Rops g /\ tr_SO3_RPY_xyz_rad Rops g = tr_rpy2r_xyz_rad Rops g /\ tr_SE3_RPY_xyz_rad Rops g = tr_rpy2tr_xyz_rad Rops g /\
  tr_SO3_RPY_nd_yxz_rad Rops g = tr_SO3_RPY_yxz_rad Rops g /\ tr_SO3_RPY_yxz_rad Rops g = tr_rpy2r_yxz_rad Rops g /\ tr_SE3_RPY_yxz_rad Rops g = tr_rpy2tr_yxz_rad Rops g /\
  tr_SO3_Eul_rad Rops g = tr_eul2r_rad Rops g /\
  tr_SE3_Eul_rad Rops g = tr_eul2tr_rad Rops g.
Proof. repeat split; gen_ring. Qed.
Print Assumptions C15_class_is_base_rad.

Theorem C15_class_is_base_deg :
  forall g : V3 R,
  tr_SO3_RPY_nd_zyx_deg Rops g = tr_SO3_RPY_zyx_deg Rops g /\ tr_SO3_RPY_zyx_deg Rops g = tr_rpy2r_zyx_deg Rops g /\ tr_SE3_RPY_zyx_deg Rops g = tr_rpy2tr_zyx_deg Rops g /\
  tr_SO3_RPY_nd_xyz_deg Rops g = tr_SO3_RPY_xyz_deg Rops g /\ tr_SO3_RPY_xyz_deg Rops g = tr_rpy2r_xyz_deg Rops g /\ tr_SE3_RPY_xyz_deg Rops g = tr_rpy2tr_xyz_deg Rops g /\
  tr_SO3_RPY_nd_yxz_deg Rops g = tr_SO3_RPY_yxz_deg Rops g /\ tr_SO3_RPY_yxz_deg Rops g = tr_rpy2r_yxz_deg Rops g /\ tr_SE3_RPY_yxz_deg Rops g = tr_rpy2tr_yxz_deg Rops g /\
  tr_SO3_Eul_deg Rops g = tr_eul2r_deg Rops g /\
  tr_SE3_Eul_deg Rops g = tr_eul2tr_deg Rops g.
Proof. repeat split; gen_ring. Qed.
Print Assumptions C15_class_is_base_deg.

(* bridge to the hand model of getunit (Model/C15_ArgCheck.v): the traced conversion IS the model's, for every angle *)
Theorem C15_getunit_model_bridge : forall a : R,
  getunit Rops a UDeg = Ok (tr_getunit_deg Rops a) /\ getunit Rops a URad = Ok a.
Proof. intros; split; [|reflexivity]. unfold getunit, deg2rad; f_equal. open_traces; field. Qed.
Print Assumptions C15_getunit_model_bridge.

(* returned angle: tr2xyt(T, unit='deg') is tr2xyt(T) with the angle times 180/pi (x, y untouched) *)
Theorem C15_deg_rad_tr2xyt : forall X : M33 R,
  tr_tr2xyt_deg Rops X =
  (let '(x, y, a) := tr_tr2xyt_rad Rops X in (x, y, a * 180 / PI)).
Proof. open_traces. tuple_eq ltac:(try reflexivity). field. apply PI_neq0. Qed.
Print Assumptions C15_deg_rad_tr2xyt.
