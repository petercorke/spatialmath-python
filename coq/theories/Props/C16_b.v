(* C16 (b) -- pose classes on symbolic values: constructors / accessors documented ':SymPy: supported' and the
   pose-class operators over them.  A symbolic pose is an object array whose last row is the structural (0,..,0,1)
   (as_pose4 / as_pose3 of the argument matrix).
   Value = reference; structural constants by conversion over an abstract ops record;
   compose / invert / act on points = the matrix model, and the group laws on SE(3). *)
From Coq Require Import Reals ZArith Lra List.
From SM Require Import Base.Ops Base.Lin Base.RInst Base.RLin Model.C16_struct Model.C16_ref Model.C16_open Model.Action.
From SMgen Require Import Traces_C16.
Import ListNotations.
Open Scope R_scope.


(* constructors and accessors: nothing is computed *)
Theorem C16_ctor_structural : forall (T : Type) (O : ops T) (Rm : M33 T) (X : M44 T) (x y z : T),
  tr_SO3_ctor O Rm = Rm /\ tr_SO3_R O Rm = Rm /\
  tr_SE3_ctor_M O X = as_pose4 O X /\ tr_SE3_t O X = transl3 X /\
  tr_SE3_ctor_xyz O x y z = transl_ref O x y z /\ tr_SE3_ctor_list O (x,y,z) = transl_ref O x y z.
Proof. intros; destruct_tuples; repeat split; reflexivity. Qed.
Print Assumptions C16_ctor_structural.

Theorem C16_SE3_R_value : forall (t a b : R) (v : V3 R),
  tr_SE3_Rx Rops t = r2t3 Rops (rotx_ref Rops t) /\ tr_SE3_Ry Rops t = r2t3 Rops (roty_ref Rops t) /\
  tr_SE3_Rz Rops t = r2t3 Rops (rotz_ref Rops t) /\
  tr_SE3_Rx_t Rops t v = rt2tr3 Rops (rotx_ref Rops t) v /\ tr_SE3_Ry_t Rops t v = rt2tr3 Rops (roty_ref Rops t) v /\
  tr_SE3_Rz_t Rops t v = rt2tr3 Rops (rotz_ref Rops t) v /\
  (* a sequence [a, b]: element 1 is the pose of b *)
  tr_SE3_Rx_seq Rops a b = tr_SE3_Rx Rops b /\ tr_SE3_Ry_seq Rops a b = tr_SE3_Ry Rops b /\
  tr_SE3_Rz_seq Rops a b = tr_SE3_Rz Rops b.
Proof. intros; repeat split; ref_ring. Qed.
Print Assumptions C16_SE3_R_value.

Theorem C16_SE3_R_structural : forall (T : Type) (O : ops T) (t : T) (v : V3 T),
  matches O (hom44 pat_rotx t000) (fl44 (tr_SE3_Rx O t)) /\ matches O (hom44 pat_roty t000) (fl44 (tr_SE3_Ry O t)) /\
  matches O (hom44 pat_rotz t000) (fl44 (tr_SE3_Rz O t)) /\
  matches O (hom44 pat_rotx txxx) (fl44 (tr_SE3_Rx_t O t v)) /\ matches O (hom44 pat_roty txxx) (fl44 (tr_SE3_Ry_t O t v)) /\
  matches O (hom44 pat_rotz txxx) (fl44 (tr_SE3_Rz_t O t v)).
Proof. intros; destruct v as [[x y] z]; repeat split; reflexivity. Qed.
Print Assumptions C16_SE3_R_structural.

(* SE3.Rx/Ry/Rz(theta, 'deg') (repaired by 61ca10f) = the radian pose at k*theta, value and structure (conversion) *)
Theorem C16_SE3_R_deg : forall (T : Type) (O : ops T) (k t : T),
  tr_SE3_Rx_deg O k t = tr_SE3_Rx O (mul O k t) /\ tr_SE3_Ry_deg O k t = tr_SE3_Ry O (mul O k t) /\
  tr_SE3_Rz_deg O k t = tr_SE3_Rz O (mul O k t).
Proof. intros; repeat split; reflexivity. Qed.
Print Assumptions C16_SE3_R_deg.

Theorem C16_SE3_R_deg_value : forall k t : R,
  tr_SE3_Rx_deg Rops k t = r2t3 Rops (rotx_ref Rops (k * t)) /\ tr_SE3_Ry_deg Rops k t = r2t3 Rops (roty_ref Rops (k * t)) /\
  tr_SE3_Rz_deg Rops k t = r2t3 Rops (rotz_ref Rops (k * t)).
Proof. intros; repeat split; ref_ring. Qed.
Print Assumptions C16_SE3_R_deg_value.

Theorem C16_SE3_T_structural : forall (T : Type) (O : ops T) (x y : T),
  tr_SE3_Tx O x = transl_ref O x (zero O) (zero O) /\ tr_SE3_Ty O x = transl_ref O (zero O) x (zero O) /\
  tr_SE3_Tz O x = transl_ref O (zero O) (zero O) x /\
  tr_SE3_Tx_seq O x y = tr_SE3_Tx O y /\ tr_SE3_Ty_seq O x y = tr_SE3_Ty O y /\ tr_SE3_Tz_seq O x y = tr_SE3_Tz O y.
Proof. intros; repeat split; reflexivity. Qed.
Print Assumptions C16_SE3_T_structural.

Theorem C16_Twist3_R_structural : forall (T : Type) (O : ops T) (t k : T),
  tr_Twist3_Rx O t = (zero O, zero O, zero O, t, zero O, zero O) /\
  tr_Twist3_Ry O t = (zero O, zero O, zero O, zero O, t, zero O) /\
  tr_Twist3_Rz O t = (zero O, zero O, zero O, zero O, zero O, t) /\
  tr_Twist3_Rx_deg O k t = tr_Twist3_Rx O (mul O k t) /\ tr_Twist3_Ry_deg O k t = tr_Twist3_Ry O (mul O k t) /\
  tr_Twist3_Rz_deg O k t = tr_Twist3_Rz O (mul O k t) /\
  (* the scalar call form (repaired by e531d4d) means the same as the one-element list *)
  tr_Twist3_Rx_scalar O t = tr_Twist3_Rx O t /\ tr_Twist3_Ry_scalar O t = tr_Twist3_Ry O t /\
  tr_Twist3_Rz_scalar O t = tr_Twist3_Rz O t.
Proof. intros; repeat split; reflexivity. Qed.
Print Assumptions C16_Twist3_R_structural.

(* SE3.Eul, SE3.RPY (all three orders), degrees *)
Theorem C16_SE3_Eul_RPY_value : forall (v : V3 R) (k : R),
  tr_SE3_Eul Rops v = r2t3 Rops (eul2r_ref Rops v) /\
  tr_SE3_RPY_zyx Rops v = r2t3 Rops (rpy_zyx_ref Rops v) /\
  tr_SE3_RPY_xyz Rops v = r2t3 Rops (rpy_xyz_ref Rops v) /\
  tr_SE3_RPY_yxz Rops v = r2t3 Rops (rpy_yxz_ref Rops v) /\
  tr_SE3_Eul_deg Rops k v = tr_SE3_Eul Rops (vscale3k Rops k v) /\
  tr_SE3_RPY_deg Rops k v = tr_SE3_RPY_zyx Rops (vscale3k Rops k v).
Proof. intros; repeat split; ref_ring. Qed.
Print Assumptions C16_SE3_Eul_RPY_value.

Theorem C16_SE3_Eul_RPY_structural : forall (T : Type) (O : ops T) (v : V3 T),
  matches O (hom44 pat_any33 t000) (fl44 (tr_SE3_Eul O v)) /\ matches O (hom44 pat_any33 t000) (fl44 (tr_SE3_RPY_zyx O v)) /\
  matches O (hom44 pat_any33 t000) (fl44 (tr_SE3_RPY_xyz O v)) /\ matches O (hom44 pat_any33 t000) (fl44 (tr_SE3_RPY_yxz O v)).
Proof. intros; destruct v as [[a b] c]; repeat split; reflexivity. Qed.
Print Assumptions C16_SE3_Eul_RPY_structural.

Theorem C16_SE3_inv_value : forall X Y : M44 R,
  tr_SE3_inv Rops X = trinv_ref X /\ tr_SE3_inv_seq Rops X Y = trinv_ref Y.
Proof. intros; split; ref_ring. Qed.
Print Assumptions C16_SE3_inv_value.

Theorem C16_SE3_inv_structural : forall (T : Type) (O : ops T) (X : M44 T),
  matches O (hom44 pat_any33 txxx) (fl44 (tr_SE3_inv O X)) /\ t2r3 (tr_SE3_inv O X) = mtr33 (t2r3 X).
Proof. intros; destruct_tuples; repeat split; reflexivity. Qed.
Print Assumptions C16_SE3_inv_structural.

Theorem C16_SE3_Ad_value : forall X : M44 R, tr_SE3_Ad Rops X = Ad_ref Rops X.
Proof. ref_ring. Qed.
Print Assumptions C16_SE3_Ad_value.

Theorem C16_SE3_Ad_structural : forall (T : Type) (O : ops T) (X : M44 T), matches O (pat_jac false) (fl66 (tr_SE3_Ad O X)).
Proof. intros; destruct_tuples; repeat split; reflexivity. Qed.
Print Assumptions C16_SE3_Ad_structural.

(* SE3.jacob (repaired by 5493c9a: it now calls base.tr2jac): the velocity-transform Jacobian [[R',0],[0,R']] *)
Theorem C16_SE3_jacob_value : forall X : M44 R,
  tr_SE3_jacob Rops X = tr2jac_ref Rops X /\ tr_SE3_jacob Rops X = tr_tr2jac Rops X.
Proof. intros; split; ref_ring. Qed.
Print Assumptions C16_SE3_jacob_value.

Theorem C16_SE3_jacob_structural : forall (T : Type) (O : ops T) (X : M44 T),
  matches O (pat_jac true) (fl66 (tr_SE3_jacob O X)) /\ tr_SE3_jacob O X = tr_tr2jac O X.
Proof. intros; destruct_tuples; repeat split; reflexivity. Qed.
Print Assumptions C16_SE3_jacob_structural.

(* X * X.inv() simplifies to the identity, every entry an exact constant *)
Theorem C16_simplify_identity : forall (T : Type) (O : ops T) (a : T) (v : V3 T),
  tr_simplify_RxRxinv O a = I44 O /\ tr_simplify_EulEul O v = I44 O.
Proof. intros; destruct v as [[x y] z]; split; reflexivity. Qed.
Print Assumptions C16_simplify_identity.

(* simplification does not change the value: Rz(a) Rz(b) simplified is still the product *)
Theorem C16_simplify_value : forall a b : R,
  tr_simplify_RzRz Rops a b = mmul44 Rops (tr_SE3_Rz Rops a) (tr_SE3_Rz Rops b).
Proof. ref_unfold. rewrite ?cos_plus, ?sin_plus, ?cos_minus, ?sin_minus. tuple_eq ltac:(ring). Qed.
Print Assumptions C16_simplify_value.

Theorem C16_simplify_structural : forall (T : Type) (O : ops T) (a b : T),
  matches O (hom44 pat_rotz t000) (fl44 (tr_simplify_RzRz O a b)).
Proof. intros; repeat split; reflexivity. Qed.
Print Assumptions C16_simplify_structural.

(* operators = matrix model *)
Theorem C16_SE3_ops_value : forall (X Y : M44 R) (v : V3 R),
  tr_SE3_mul Rops X Y = mmul44 Rops (as_pose4 Rops X) (as_pose4 Rops Y) /\
  tr_SE3_div Rops X Y = mmul44 Rops (as_pose4 Rops X) (trinv_ref Y) /\
  tr_SE3_pow2 Rops X = mmul44 Rops (as_pose4 Rops X) (as_pose4 Rops X) /\
  tr_SE3_pow3 Rops X = mmul44 Rops (mmul44 Rops (as_pose4 Rops X) (as_pose4 Rops X)) (as_pose4 Rops X) /\
  tr_SE3_pt Rops X v = pt3 Rops X v /\ tr_SE3_pt_list Rops X v = pt3 Rops X v.
Proof. intros; repeat split; ref_ring. Qed.
Print Assumptions C16_SE3_ops_value.

Theorem C16_SE3_ops_structural : forall (T : Type) (O : ops T) (X Y : M44 T),
  matches O (hom44 pat_any33 txxx) (fl44 (tr_SE3_mul O X Y)) /\ matches O (hom44 pat_any33 txxx) (fl44 (tr_SE3_div O X Y)) /\
  matches O (hom44 pat_any33 txxx) (fl44 (tr_SE3_pow2 O X)) /\ matches O (hom44 pat_any33 txxx) (fl44 (tr_SE3_pow3 O X)) /\
  tr_SE3_pow0 O X = I44 O.
Proof. intros; destruct_tuples; repeat split; reflexivity. Qed.
Print Assumptions C16_SE3_ops_structural.

(* group behaviour of the symbolic operators (what "consistently with their numeric counterparts" means) *)
Lemma as_pose4_id : forall X : M44 R, SE3 X -> as_pose4 Rops X = X.
Proof. intros X H. symmetry. exact (SE3_decompose X H). Qed.

Theorem C16_SE3_closed : forall X Y : M44 R, SE3 X -> SE3 Y ->
  SE3 (tr_SE3_mul Rops X Y) /\ SE3 (tr_SE3_inv Rops X) /\ SE3 (tr_SE3_div Rops X Y).
Proof.
  intros X Y HX HY.
  destruct (C16_SE3_ops_value X Y (0,0,0)) as (-> & -> & _). destruct (C16_SE3_inv_value X X) as [-> _].
  rewrite !as_pose4_id by assumption.
  repeat split; try (apply SE3_mul; auto using SE3_inv); try apply (SE3_inv X HX).
Qed.
Print Assumptions C16_SE3_closed.

Theorem C16_SE3_inverse_law : forall X : M44 R, SE3 X ->
  tr_SE3_mul Rops X (tr_SE3_inv Rops X) = I44 Rops /\ tr_SE3_mul Rops (tr_SE3_inv Rops X) X = I44 Rops /\
  tr_SE3_div Rops X X = I44 Rops.
Proof.
  intros X HX. pose proof (SE3_inv X HX) as HI.
  destruct (C16_SE3_inv_value X X) as [-> _].
  destruct (C16_SE3_ops_value X (trinv_ref X) (0,0,0)) as (-> & _).
  destruct (C16_SE3_ops_value (trinv_ref X) X (0,0,0)) as (-> & _).
  destruct (C16_SE3_ops_value X X (0,0,0)) as (_ & -> & _).
  rewrite !as_pose4_id by assumption.
  repeat split; [apply SE3_inv_r | apply SE3_inv_l | apply SE3_inv_r]; assumption.
Qed.
Print Assumptions C16_SE3_inverse_law.

(* acting on points: composition acts as composition; the inverse undoes the action *)
Theorem C16_SE3_action : forall (X Y : M44 R) (v : V3 R),
  tr_SE3_pt Rops (tr_SE3_mul Rops X Y) v = tr_SE3_pt Rops X (tr_SE3_pt Rops Y v).
Proof. ref_ring. Qed.
Print Assumptions C16_SE3_action.

Theorem C16_SE3_action_inverse : forall (X : M44 R) (v : V3 R), SE3 X ->
  tr_SE3_pt Rops (tr_SE3_inv Rops X) (tr_SE3_pt Rops X v) = v.
Proof.
  intros X v HX. destruct (C16_SE3_inv_value X X) as [-> _].
  assert (E : forall A u, tr_SE3_pt Rops A u = pt3 Rops A u) by (intros A u; apply (C16_SE3_ops_value A A u)).
  rewrite !E. apply SE3_pt3_inverse, HX.
Qed.
Print Assumptions C16_SE3_action_inverse.
Example C16_SE3_action_nonvacuous : SE3 (tr_SE3_Rx_t Rops 0 (1,2,3)).
Proof.
  destruct (C16_SE3_R_value 0 0 0 (1,2,3)) as (_&_&_&->&_). apply SE3_rt. unfold rotx_ref. apply SO3_rotx. apply cs_unit.
Qed.

Theorem C16_SO3_ops_value : forall (A B : M33 R) (v : V3 R),
  tr_SO3_mul Rops A B = mmul33 Rops A B /\ tr_SO3_div Rops A B = mmul33 Rops A (mtr33 B) /\
  tr_SO3_inv Rops A = mtr33 A /\ tr_SO3_pt Rops A v = mv33 Rops A v.
Proof. intros; repeat split; ref_ring. Qed.
Print Assumptions C16_SO3_ops_value.

Theorem C16_SO3_inv_structural : forall (T : Type) (O : ops T) (A : M33 T), tr_SO3_inv O A = mtr33 A.
Proof. intros; destruct_tuples; reflexivity. Qed.
Print Assumptions C16_SO3_inv_structural.

Theorem C16_SO3_group : forall A B : M33 R, SO3 A -> SO3 B ->
  SO3 (tr_SO3_mul Rops A B) /\ SO3 (tr_SO3_inv Rops A) /\ tr_SO3_mul Rops A (tr_SO3_inv Rops A) = I33 Rops /\
  tr_SO3_div Rops A A = I33 Rops.
Proof.
  intros A B HA HB. destruct (C16_SO3_ops_value A B (0,0,0)) as (-> & _ & -> & _).
  destruct (C16_SO3_ops_value A (mtr33 A) (0,0,0)) as (-> & _). destruct (C16_SO3_ops_value A A (0,0,0)) as (_ & -> & _).
  repeat split; auto using SO3_mul, SO3_tr, SO3_inv_r.
Qed.
Print Assumptions C16_SO3_group.
Example C16_SO3_nonvacuous : SO3 (tr_rotx Rops 1).
Proof. assert (H : tr_rotx Rops 1 = rotx_cs Rops (cos 1) (sin 1)) by ref_ring. rewrite H. apply SO3_rotx, cs_unit. Qed.

Theorem C16_SE2_SO2_ops_value : forall (X Y : M33 R) (A B : M22 R) (v : V2 R),
  tr_SE2_mul Rops X Y = mmul33 Rops (as_pose3 Rops X) (as_pose3 Rops Y) /\ tr_SE2_pt Rops X v = pt2 Rops X v /\
  tr_SO2_mul Rops A B = mmul22 Rops A B /\ tr_SO2_pt Rops A v = mv22 Rops A v.
Proof. intros; repeat split; ref_ring. Qed.
Print Assumptions C16_SE2_SO2_ops_value.

Theorem C16_SE2_mul_structural : forall (T : Type) (O : ops T) (X Y : M33 T), matches O pat_hom33 (fl33 (tr_SE2_mul O X Y)).
Proof. intros; destruct_tuples; repeat split; reflexivity. Qed.
Print Assumptions C16_SE2_mul_structural.

(* symbolic SE2 / SO2 inverse and division (repaired by d486d19 + 1c511ed: object-aware rt2tr, check=False) *)
Theorem C16_SE2_SO2_inv_value : forall (X Y : M33 R) (A B : M22 R),
  tr_SE2_inv Rops X = trinv2_ref Rops X /\ tr_SE2_div Rops X Y = mmul33 Rops (as_pose3 Rops X) (trinv2_ref Rops Y) /\
  tr_SO2_inv Rops A = mtr22 A /\ tr_SO2_div Rops A B = mmul22 Rops A (mtr22 B).
Proof. intros; repeat split; ref_ring. Qed.
Print Assumptions C16_SE2_SO2_inv_value.

Theorem C16_SE2_SO2_inv_structural : forall (T : Type) (O : ops T) (X Y : M33 T) (A : M22 T),
  matches O pat_hom33 (fl33 (tr_SE2_inv O X)) /\ t2r2 (tr_SE2_inv O X) = mtr22 (t2r2 X) /\
  matches O pat_hom33 (fl33 (tr_SE2_div O X Y)) /\ tr_SO2_inv O A = mtr22 A /\
  (* the SE(2) inverse is the same function as base.trinv2 *)
  tr_SE2_inv O X = tr_trinv2 O X.
Proof. intros; destruct_tuples; repeat split; reflexivity. Qed.
Print Assumptions C16_SE2_SO2_inv_structural.

Theorem C16_SO2_group : forall A B : M22 R, SO2 A -> SO2 B ->
  SO2 (tr_SO2_mul Rops A B) /\ SO2 (tr_SO2_inv Rops A) /\ tr_SO2_mul Rops A (tr_SO2_inv Rops A) = I22 Rops /\
  tr_SO2_div Rops A A = I22 Rops /\ SO2 (tr_SO2_div Rops A B).
Proof.
  intros A B HA HB.
  destruct (C16_SE2_SO2_ops_value (I33 Rops) (I33 Rops) A B (0,0)) as (_ & _ & -> & _).
  destruct (C16_SE2_SO2_inv_value (I33 Rops) (I33 Rops) A B) as (_ & _ & -> & ->).
  destruct (C16_SE2_SO2_inv_value (I33 Rops) (I33 Rops) A A) as (_ & _ & _ & ->).
  destruct (C16_SE2_SO2_ops_value (I33 Rops) (I33 Rops) A (mtr22 A) (0,0)) as (_ & _ & -> & _).
  pose proof (proj1 (SO2_matrix A) HA) as [HI _].
  repeat split; auto using SO2_mul, SO2_tr.
Qed.
Print Assumptions C16_SO2_group.
Example C16_SO2_nonvacuous : SO2 (rot2_cs Rops (cos 1) (sin 1)).
Proof. apply SO2_rot2, cs_unit. Qed.

Lemma as_pose3_id : forall X : M33 R, SE2 X -> as_pose3 Rops X = X.
Proof. intros X H. symmetry. exact (SE2_decompose X H). Qed.

Theorem C16_SE2_inverse_law : forall X : M33 R, SE2 X ->
  tr_SE2_mul Rops X (tr_SE2_inv Rops X) = I33 Rops /\ tr_SE2_mul Rops (tr_SE2_inv Rops X) X = I33 Rops /\
  tr_SE2_div Rops X X = I33 Rops /\ SE2 (tr_SE2_inv Rops X) /\
  forall v : V2 R, tr_SE2_pt Rops (tr_SE2_inv Rops X) (tr_SE2_pt Rops X v) = v.
Proof.
  intros X HX. pose proof (SE2_inv X HX) as HI.
  destruct (C16_SE2_SO2_inv_value X X (I22 Rops) (I22 Rops)) as (-> & -> & _).
  assert (M : forall A B, tr_SE2_mul Rops A B = mmul33 Rops (as_pose3 Rops A) (as_pose3 Rops B))
    by (intros A B; apply (C16_SE2_SO2_ops_value A B (I22 Rops) (I22 Rops) (0,0))).
  assert (P : forall A u, tr_SE2_pt Rops A u = pt2 Rops A u)
    by (intros A u; apply (C16_SE2_SO2_ops_value A A (I22 Rops) (I22 Rops) u)).
  rewrite !M, !as_pose3_id by assumption.
  repeat split; [apply SE2_inv_r | apply SE2_inv_l | apply SE2_inv_r | apply HI | apply HI | ]; try assumption.
  intros v. rewrite !P. apply SE2_pt2_inverse, HX.
Qed.
Print Assumptions C16_SE2_inverse_law.
Example C16_SE2_nonvacuous : SE2 (rt2tr2 Rops (rot2_cs Rops (cos 1) (sin 1)) (2,3)).
Proof. unfold SE2. lin_simpl. split; [apply (SO2_rot2 (cos 1) (sin 1)), cs_unit | reflexivity]. Qed.
