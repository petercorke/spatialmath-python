(* C01 -- closure of interpolation: every branch of base.slerp returns a unit quaternion for unit inputs, hence the
   SE(3) interpolant  rt2tr(q2r(slerp ..), lerp ..)  of base.trinterp / SE3.interp is in SE(3).
   The statements are about the hand model  slerp / trinterp_q  of Model/C11_Interp.v (fixed file, owned by C11, lemmas in
   Model/C11_InterpR.v) with the small-angle threshold slerp_k01 REGENERATED from the AST of base.slerp; the wrappers
   m01_slerp_long / m01_slerp_short of gen/Traces_C01.v are run on OCaml floats against base.slerp on every run
   (close pairs, relative angle log-uniform, interior s), so a branch that returns something else -- e.g. an un-normalised
   linear interpolation for nearly equal orientations -- breaks the skeleton test and the correspondence, and the
   oracle of props/C01.py exhibits the failing input. *)
From Coq Require Import Reals ZArith Lra.
From SM Require Import Base.Ops Base.Lin Base.RInst Base.RLin Model.C01_Lemmas Model.C11_Interp Model.C11_InterpR.
From SMgen Require Import Traces_C01.
Open Scope R_scope.

Definition K01 : R := of_Z Rops slerp_k01.

(* the regenerated threshold is a non-negative multiple of eps *)
Lemma C01_slerp_threshold_nonneg : 0 <= K01 * eps Rops.
Proof.
  unfold K01. sm_simpl. apply Rmult_le_pos.
  - apply IZR_le. unfold slerp_k01. discriminate.
  - lra.
Qed.

Lemma unitq_UnitQ q : unitq q <-> UnitQ q.
Proof. unfold unitq. symmetry. apply UnitQ_normsq. Qed.

(* every branch: range error / s = 0 / s = 1 / general (sin-weighted, divides by sin theta > 0) / small angle (returns q0) *)
Theorem C01_slerp_closed : forall (q0 q1 : V4 R) (s : R) (sh : bool) (q : V4 R),
  UnitQ q0 -> UnitQ q1 -> not_antipodal sh q0 q1 ->
  slerp Rops K01 q0 q1 s sh = Ok q -> UnitQ q.
Proof.
  intros q0 q1 s sh q U0 U1 NA. apply unitq_UnitQ in U0. apply unitq_UnitQ in U1. rewrite <- unitq_UnitQ.
  unfold slerp. destruct (negb (in01 Rops s)); [discriminate|].
  destruct (eqb Rops s (zero Rops)); [intros E; injection E; intros; subst; assumption|].
  destruct (eqb Rops s (one Rops)); [intros E; injection E; intros; subst; assumption|].
  pose proof (slerp_q0_unit sh q0 q1 U0) as Ua.
  destruct (slerp_theta_facts sh q0 q1 U0 U1) as (B & Hc & _).
  destruct (ltb Rops (mul Rops K01 (eps Rops)) (abs_ Rops (slerp_theta Rops sh q0 q1))) eqn:L;
    intros E; injection E; intros; subst; [|exact Ua].
  change (Rltb (K01 * eps Rops) (Rabs (slerp_theta Rops sh q0 q1)) = true) in L. apply Rltb_true in L.
  pose proof C01_slerp_threshold_nonneg as Kp.
  rewrite Rabs_right in L by lra.
  apply slerp_general_unit; try assumption.
  - symmetry. exact Hc.
  - apply Rgt_not_eq. apply slerp_sin_theta_pos; try assumption. lra.
Qed.
Print Assumptions C01_slerp_closed.

(* the wrappers that are run against the implementation are this model *)
Theorem C01_slerp_wrappers_closed : forall (q0 q1 : V4 R) (s : R) (q : V4 R), UnitQ q0 -> UnitQ q1 ->
  (-1 < dot4 Rops q0 q1 -> m01_slerp_long Rops q0 q1 s = Some q -> UnitQ q) /\
  (m01_slerp_short Rops q0 q1 s = Some q -> UnitQ q).
Proof.
  intros q0 q1 s q U0 U1. unfold m01_slerp_long, m01_slerp_short. split.
  - intros D. destruct (slerp Rops (of_Z Rops slerp_k01) q0 q1 s false) eqn:E; simpl; [|discriminate].
    intros H; injection H; intros; subst. apply (C01_slerp_closed q0 q1 s false q U0 U1); [right; exact D | exact E].
  - destruct (slerp Rops (of_Z Rops slerp_k01) q0 q1 s true) eqn:E; simpl; [|discriminate].
    intros H; injection H; intros; subst. apply (C01_slerp_closed q0 q1 s true q U0 U1); [left; reflexivity | exact E].
Qed.
Print Assumptions C01_slerp_wrappers_closed.

(* SE(3) interpolation (after the two r2q calls): rotation block q2r of a unit quaternion, last row (0,0,0,1) *)
Theorem C01_trinterp_closed : forall (q0 q1 : V4 R) (p0 p1 : V3 R) (s : R) (sh : bool) (M : M44 R),
  UnitQ q0 -> UnitQ q1 -> not_antipodal sh q0 q1 ->
  (trinterp_q Rops K01 sh q0 q1 p0 p1 s = Ok M -> SE3 M) /\
  (not_antipodal sh (qone Rops) q1 -> trinterp_q1 Rops K01 sh q1 p1 s = Ok M -> SE3 M).
Proof.
  intros q0 q1 p0 p1 s sh M U0 U1 NA. split.
  - unfold trinterp_q. destruct (negb (in01 Rops s)); [discriminate|].
    destruct (slerp Rops K01 q0 q1 s sh) eqn:E; [|discriminate].
    intros H; injection H; intros; subst. apply trinterp_result_SE3. apply unitq_UnitQ.
    apply (C01_slerp_closed q0 q1 s sh a U0 U1 NA E).
  - intros NA1. unfold trinterp_q1. destruct (negb (in01 Rops s)); [discriminate|].
    destruct (slerp Rops K01 (qone Rops) q1 s sh) eqn:E; [|discriminate].
    intros H; injection H; intros; subst. apply trinterp_result_SE3. apply unitq_UnitQ.
    apply (C01_slerp_closed (qone Rops) q1 s sh a UnitQ_one U1 NA1 E).
Qed.
Print Assumptions C01_trinterp_closed.

(* SO(3) case of trinterp / SO3.interp (repaired in /repo by ee14c5b): the result is q2r of the slerp value *)
Theorem C01_trinterp_so3_closed : forall (q0 q1 : V4 R) (s : R) (sh : bool) (q : V4 R),
  UnitQ q0 -> UnitQ q1 -> not_antipodal sh q0 q1 -> slerp Rops K01 q0 q1 s sh = Ok q -> SO3 (q2r_m Rops q).
Proof.
  intros q0 q1 s sh q U0 U1 NA E. unfold q2r_m. apply SO3_of_UnitQ. apply (C01_slerp_closed q0 q1 s sh q U0 U1 NA E).
Qed.
Print Assumptions C01_trinterp_so3_closed.

(* non-vacuity: unit operands that are not antipodal, interior s: the model returns a value (some branch) *)
Example C01_slerp_nonvacuous :
  UnitQ (1,0,0,0) /\ UnitQ (0,1,0,0) /\ not_antipodal false (1,0,0,0) (0,1,0,0) /\
  exists q, slerp Rops K01 (1,0,0,0) (0,1,0,0) (1/2) false = Ok q.
Proof.
  assert (H : in01 Rops (1/2) = true) by (apply in01_true; lra).
  repeat split; try (unfold UnitQ; lra).
  - right. lin_simpl. lra.
  - unfold slerp. rewrite H. simpl negb. cbv iota.
    destruct (eqb Rops (1/2) (zero Rops)); [eexists; reflexivity|].
    destruct (eqb Rops (1/2) (one Rops)); [eexists; reflexivity|].
    destruct (ltb Rops _ _); eexists; reflexivity.
Qed.
