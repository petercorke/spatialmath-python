(* C05 (part b: extraction) -- angle-set extraction is a right inverse of construction.
   Fixed statements.  The tr_* constructors are regenerated on every run by executing /repo's rpy2r / eul2r / rot2 /
   xyt2tr / angvec2r (and the class constructors) on symbols; c_* are the threshold factors re-read from the source AST;
   m_* are the hand models of Model/C05_Angles.v (tied to the implementation by the float correspondence run)
   instantiated with those factors.  The lemma library Model/C05_Proofs.v is parametric in the thresholds. *)
From Coq Require Import Reals Lra Psatz.
From SM Require Import Base.Ops Base.Lin Base.RInst Base.RLin Model.C05_Trig Model.C05_Angles Model.C05_Proofs.
From SMgen Require Import Consts_C05 Traces_C05.
Open Scope R_scope.

(* the documented axis orders of the traced constructors *)
Lemma C05_rpy2r_zyx_order : forall r p y : R,
  tr_rpy2r_zyx Rops r p y = mmul33 Rops (Rz Rops y) (mmul33 Rops (Ry Rops p) (Rx Rops r)).
Proof. c05_ring. Qed.
Lemma C05_rpy2r_xyz_order : forall r p y : R,
  tr_rpy2r_xyz Rops r p y = mmul33 Rops (Rx Rops y) (mmul33 Rops (Ry Rops p) (Rz Rops r)).
Proof. c05_ring. Qed.
Lemma C05_rpy2r_yxz_order : forall r p y : R,
  tr_rpy2r_yxz Rops r p y = mmul33 Rops (Ry Rops y) (mmul33 Rops (Rx Rops p) (Rz Rops r)).
Proof. c05_ring. Qed.
Lemma C05_eul2r_order : forall f t s : R,
  tr_eul2r Rops f t s = mmul33 Rops (Rz Rops f) (mmul33 Rops (Ry Rops t) (Rz Rops s)).
Proof. c05_ring. Qed.
Lemma C05_planar_constructors : forall x y t : R,
  tr_rot2 Rops t = rot2_cs Rops (cos t) (sin t) /\ tr_xyt2tr Rops (x,y,t) = xyt2tr_ref Rops (x,y,t).
Proof. intros; repeat split; c05_ring. Qed.
Lemma C05_constructors_in_SO3 : forall r p y : R,
  SO3 (tr_rpy2r_zyx Rops r p y) /\ SO3 (tr_rpy2r_xyz Rops r p y) /\ SO3 (tr_rpy2r_yxz Rops r p y) /\ SO3 (tr_eul2r Rops r p y).
Proof.
  intros. rewrite C05_rpy2r_zyx_order, C05_rpy2r_xyz_order, C05_rpy2r_yxz_order, C05_eul2r_order.
  split; [|split; [|split]]; apply SO3_mul3; first [apply SO3_Rz | apply SO3_Ry | apply SO3_Rx].
Qed.

(* side conditions the theorems below need: the band is non-empty (so exact singular inputs take the singular branch)
   and narrow (sqrt(2 k eps) stays far below the 1e-6 of the property) *)
Lemma C05_thresholds_ok :
  0 < IZR c_tr2rpy_zyx /\ 0 < IZR c_tr2rpy_xyz /\ 0 < IZR c_tr2rpy_yxz /\ 0 < IZR c_tr2eul_1 /\ 0 < IZR c_tr2eul_2 /\
  IZR c_tr2rpy_zyx * eps Rops <= 1/10^13 /\ IZR c_tr2rpy_xyz * eps Rops <= 1/10^13 /\ IZR c_tr2rpy_yxz * eps Rops <= 1/10^13 /\
  IZR c_tr2eul_1 * eps Rops <= 1/10^13 /\ IZR c_tr2eul_2 * eps Rops <= 1/10^13.
Proof. unfold c_tr2rpy_zyx, c_tr2rpy_xyz, c_tr2rpy_yxz, c_tr2eul_1, c_tr2eul_2. cbn. repeat split; lra. Qed.
Print Assumptions C05_thresholds_ok.

Ltac thr := first [apply C05_thresholds_ok | pose proof C05_thresholds_ok; tauto].

Lemma eps_val : eps Rops = / 4503599627370496.
Proof. reflexivity. Qed.

(* the instantiated models are the parametric ones *)
Lemma m_zyx M : m_tr2rpy_zyx_rad Rops M = tr2rpy_zyx Rops (IZR c_tr2rpy_zyx) M.
Proof. unfold m_tr2rpy_zyx_rad, tr2rpy_zyx_u. cbn [of_Z Rops scale_unit]. reflexivity. Qed.
Lemma m_xyz M : m_tr2rpy_xyz_rad Rops M = tr2rpy_xyz Rops (IZR c_tr2rpy_xyz) M.
Proof. unfold m_tr2rpy_xyz_rad, tr2rpy_xyz_u. cbn [of_Z Rops scale_unit]. reflexivity. Qed.
Lemma m_yxz M : m_tr2rpy_yxz_rad Rops M = tr2rpy_yxz Rops (IZR c_tr2rpy_yxz) M.
Proof. unfold m_tr2rpy_yxz_rad, tr2rpy_yxz_u. cbn [of_Z Rops scale_unit]. reflexivity. Qed.
Lemma m_eul (flip : bool) (M : M33 R) : (if flip then m_tr2eul_flip_rad Rops M else m_tr2eul_noflip_rad Rops M)
   = tr2eul Rops (IZR c_tr2eul_1) (IZR c_tr2eul_2) flip M.
Proof. destruct flip; unfold m_tr2eul_flip_rad, m_tr2eul_noflip_rad, tr2eul_u; cbn [of_Z Rops scale_unit]; reflexivity. Qed.

(* "R is outside the singular band of the code": the test the code itself makes, in L-real *)
Definition off_band (k : Z) (x : R) : Prop := ~ Rabs (Rabs x - 1) < IZR k * eps Rops.

(* Full statement (for every rotation R, exactly):  m_tr2rpy R = (r,p,y) -> rpy2r r p y = R.
   It is FALSE of the faithful model strictly inside the singular band (the code forces roll = 0 there): see
   C05_rpy_zyx_exact_in_band_refuted.  Proved: outside the band for whichever formula argmax selects (and for each of
   the four formulas separately), and at the exact singularity. *)
Theorem C05_rpy_zyx_right_inverse_partial : forall (M : M33 R) r p y,
  SO3 M -> (let '((r00,r01,r02),(r10,r11,r12),(r20,r21,r22)) := M in off_band c_tr2rpy_zyx r20) ->
  m_tr2rpy_zyx_rad Rops M = (r, p, y) -> tr_rpy2r_zyx Rops r p y = M.
Proof.
  intros M r p y H Hb E. rewrite m_zyx in E. rewrite C05_rpy2r_zyx_order.
  pose proof (tr2rpy_zyx_right_inverse (IZR c_tr2rpy_zyx) M H) as RI. rewrite E in RI. apply RI; [thr|].
  destruct M as [[[[? ?] ?] [[? ?] ?]] [[? ?] ?]]. apply is_sing_false. exact Hb.
Qed.
Print Assumptions C05_rpy_zyx_right_inverse_partial.

Theorem C05_rpy_xyz_right_inverse_partial : forall (M : M33 R) r p y,
  SO3 M -> (let '((r00,r01,r02),(r10,r11,r12),(r20,r21,r22)) := M in off_band c_tr2rpy_xyz r02) ->
  m_tr2rpy_xyz_rad Rops M = (r, p, y) -> tr_rpy2r_xyz Rops r p y = M.
Proof.
  intros M r p y H Hb E. rewrite m_xyz in E. rewrite C05_rpy2r_xyz_order.
  pose proof (tr2rpy_xyz_right_inverse (IZR c_tr2rpy_xyz) M H) as RI. rewrite E in RI. apply RI; [thr|].
  destruct M as [[[[? ?] ?] [[? ?] ?]] [[? ?] ?]]. apply is_sing_false. exact Hb.
Qed.
Print Assumptions C05_rpy_xyz_right_inverse_partial.

Theorem C05_rpy_yxz_right_inverse_partial : forall (M : M33 R) r p y,
  SO3 M -> (let '((r00,r01,r02),(r10,r11,r12),(r20,r21,r22)) := M in off_band c_tr2rpy_yxz r12) ->
  m_tr2rpy_yxz_rad Rops M = (r, p, y) -> tr_rpy2r_yxz Rops r p y = M.
Proof.
  intros M r p y H Hb E. rewrite m_yxz in E. rewrite C05_rpy2r_yxz_order.
  pose proof (tr2rpy_yxz_right_inverse (IZR c_tr2rpy_yxz) M H) as RI. rewrite E in RI. apply RI; [thr|].
  destruct M as [[[[? ?] ?] [[? ?] ?]] [[? ?] ?]]. apply is_sing_false. exact Hb.
Qed.
Print Assumptions C05_rpy_yxz_right_inverse_partial.

(* non-vacuity: a generic rotation is outside the band and the model returns angles for it *)
Example C05_rpy_right_inverse_nonvacuous :
  let M := tr_rpy2r_zyx Rops 0 0 0 in
  SO3 M /\ (let '((r00,r01,r02),(r10,r11,r12),(r20,r21,r22)) := M in off_band c_tr2rpy_zyx r20).
Proof.
  cbv zeta. split; [apply C05_constructors_in_SO3|].
  autounfold with smgen. sm_simpl. unfold off_band. rewrite sin_0. replace (-1 * 0) with 0 by ring.
  rewrite Rabs_R0. replace (0 - 1) with (-1) by ring. rewrite Rabs_left by lra. unfold c_tr2rpy_zyx. cbn. lra.
Qed.

(* every one of the four argmax-selected formulas is a right inverse wherever its own denominator is non-zero:
   argmax is only a conditioning choice *)
Theorem C05_rpy_each_formula_right_inverse : forall (M : M33 R) (k : nat), SO3 M ->
  (nonsing_zyx M -> den_zyx k M <> 0 -> let '(r,p,y) := rpy_zyx_ns Rops k M in tr_rpy2r_zyx Rops r p y = M) /\
  (nonsing_xyz M -> den_xyz k M <> 0 -> let '(r,p,y) := rpy_xyz_ns Rops k M in tr_rpy2r_xyz Rops r p y = M) /\
  (nonsing_yxz M -> den_yxz k M <> 0 -> let '(r,p,y) := rpy_yxz_ns Rops k M in tr_rpy2r_yxz Rops r p y = M).
Proof.
  intros M k H. repeat split; intros Hn Hd.
  - pose proof (rpy_zyx_ns_right_inverse M k H Hn Hd) as E. destruct (rpy_zyx_ns Rops k M) as [[r p] y].
    rewrite C05_rpy2r_zyx_order. exact E.
  - pose proof (rpy_xyz_ns_right_inverse M k H Hn Hd) as E. destruct (rpy_xyz_ns Rops k M) as [[r p] y].
    rewrite C05_rpy2r_xyz_order. exact E.
  - pose proof (rpy_yxz_ns_right_inverse M k H Hn Hd) as E. destruct (rpy_yxz_ns Rops k M) as [[r p] y].
    rewrite C05_rpy2r_yxz_order. exact E.
Qed.
Print Assumptions C05_rpy_each_formula_right_inverse.
Example C05_rpy_each_formula_nonvacuous : nonsing_zyx (I33 Rops) /\ den_zyx 0 (I33 Rops) <> 0 /\ den_zyx 3 (I33 Rops) <> 0.
Proof. unfold nonsing_zyx, den_zyx, sel4. lin_simpl. repeat split; lra. Qed.

(* exact singular configuration: pitch = +-90 deg *)
Theorem C05_rpy_singular_exact : forall (M : M33 R), SO3 M ->
  let '((r00,r01,r02),(r10,r11,r12),(r20,r21,r22)) := M in
  ((r20 = 1 \/ r20 = -1) -> exists p y, m_tr2rpy_zyx_rad Rops M = (0,p,y) /\ tr_rpy2r_zyx Rops 0 p y = M) /\
  ((r02 = 1 \/ r02 = -1) -> exists p y, m_tr2rpy_xyz_rad Rops M = (0,p,y) /\ tr_rpy2r_xyz Rops 0 p y = M) /\
  ((r12 = 1 \/ r12 = -1) -> exists p y, m_tr2rpy_yxz_rad Rops M = (0,p,y) /\ tr_rpy2r_yxz Rops 0 p y = M).
Proof.
  intros M H. pose proof C05_thresholds_ok as T.
  pose proof (tr2rpy_zyx_singular_exact (IZR c_tr2rpy_zyx) M H ltac:(tauto)) as Z.
  pose proof (tr2rpy_xyz_singular_exact (IZR c_tr2rpy_xyz) M H ltac:(tauto)) as X.
  pose proof (tr2rpy_yxz_singular_exact (IZR c_tr2rpy_yxz) M H ltac:(tauto)) as Y.
  rewrite m_zyx, m_xyz, m_yxz.
  destruct M as [[[[r00 r01] r02] [[r10 r11] r12]] [[r20 r21] r22]].
  repeat split; intros Hs.
  - destruct (Z Hs) as (p & y & E1 & E2). exists p, y. rewrite C05_rpy2r_zyx_order. split; assumption.
  - destruct (X Hs) as (p & y & E1 & E2). exists p, y. rewrite C05_rpy2r_xyz_order. split; assumption.
  - destruct (Y Hs) as (p & y & E1 & E2). exists p, y. rewrite C05_rpy2r_yxz_order. split; assumption.
Qed.
Print Assumptions C05_rpy_singular_exact.
Example C05_rpy_singular_nonvacuous : SO3 (roty_cs Rops 0 1) /\ (let '((_,_,_),(_,_,_),(r20,_,_)) := roty_cs Rops 0 1 in r20 = -1).
Proof. split; [apply SO3_roty; ring|]. lin_simpl. ring. Qed.

(* strictly inside the band the exact statement fails (roll is forced to 0): witness Ry(p) Rx(90 deg) with sin p = 1 - 2^-50 *)
Definition band_witness : M33 R :=
  let s := 1 - 4 * eps Rops in let c := sqrt (1 - s*s) in ((c, s, 0), (0, 0, -1), (-s, c, 0)).
Theorem C05_rpy_zyx_exact_in_band_refuted :
  exists M r p y, SO3 M /\ m_tr2rpy_zyx_rad Rops M = (r,p,y) /\ tr_rpy2r_zyx Rops r p y <> M.
Proof.
  set (s := 1 - 4 * eps Rops). assert (Hs : 0 < s < 1) by (unfold s; rewrite eps_val; lra).
  set (c := sqrt (1 - s*s)). assert (Hc : 0 < c) by (apply sqrt_lt_R0; nra).
  assert (Hcc : c*c = 1 - s*s) by (apply sqrt_sqrt; nra).
  assert (Hso : SO3 band_witness).
  { unfold band_witness. fold s. fold c. unfold SO3. repeat split; nra. }
  destruct (tr2rpy_zyx Rops (IZR c_tr2rpy_zyx) band_witness) as [[r p] y] eqn:E.
  exists band_witness, r, p, y. split; [exact Hso|]. rewrite m_zyx. split; [exact E|].
  assert (Hr : r = 0).
  { unfold band_witness in E. fold s in E. fold c in E. unfold tr2rpy_zyx in E.
    assert (S : is_sing Rops (IZR c_tr2rpy_zyx) (- s) = true).
    { apply is_sing_true. rewrite Rabs_Ropp, (Rabs_right s) by lra. rewrite Rabs_left by lra.
      unfold c_tr2rpy_zyx, s. rewrite eps_val. lra. }
    rewrite S in E. unfold rpy_zyx_sing in E. injection E; intros; subst; reflexivity. }
  subst r. rewrite C05_rpy2r_zyx_order. unfold band_witness. fold s. fold c.
  unfold Rz, Ry, Rx. lin_simpl. rewrite sin_0. intros Q.
  injection Q; intros. nra.
Qed.
Print Assumptions C05_rpy_zyx_exact_in_band_refuted.

(* TOTALITY (full statement, since /repo dd68bbe clips the asin argument): tr2rpy is a total function of its matrix
   argument -- by the type of the (tied) model -- and in the singular band it returns roll = 0 and
   pitch = -+asin(clip(x)) for EVERY matrix, rotation or not.  The matrix that refuted totality before the fix
   (orthogonality defect <= 3 eps, det = 1 + eps, R31 = -(1 + eps): inside the band, asin raised) now gives pitch = pi/2. *)
Definition defect33 (M : M33 R) : M33 R := msub33 Rops (mmul33 Rops M (mtr33 M)) (I33 Rops).
Definition maxabs33 (M : M33 R) : R :=
  let '((a,b,c),(d,e,f),(g,h,i)) := M in
  Rmax (Rabs a) (Rmax (Rabs b) (Rmax (Rabs c) (Rmax (Rabs d) (Rmax (Rabs e) (Rmax (Rabs f) (Rmax (Rabs g) (Rmax (Rabs h) (Rabs i)))))))).
Theorem C05_rpy_total : forall M : M33 R,
  let '((r00,r01,r02),(r10,r11,r12),(r20,r21,r22)) := M in
  (is_sing Rops (IZR c_tr2rpy_zyx) r20 = true -> exists y, m_tr2rpy_zyx_rad Rops M = (0, - asin (clip1 Rops r20), y)) /\
  (is_sing Rops (IZR c_tr2rpy_xyz) r02 = true -> exists y, m_tr2rpy_xyz_rad Rops M = (0, asin (clip1 Rops r02), y)) /\
  (is_sing Rops (IZR c_tr2rpy_yxz) r12 = true -> exists y, m_tr2rpy_yxz_rad Rops M = (0, - asin (clip1 Rops r12), y)).
Proof.
  intros M. rewrite m_zyx, m_xyz, m_yxz. destruct M as [[[[r00 r01] r02] [[r10 r11] r12]] [[r20 r21] r22]].
  unfold tr2rpy_zyx, tr2rpy_xyz, tr2rpy_yxz. repeat split; intros ->; eexists; reflexivity.
Qed.
Print Assumptions C05_rpy_total.
(* on exact rotations the clip changes nothing *)
Theorem C05_rpy_clip_invisible_on_SO3 : forall M : M33 R, SO3 M ->
  let '((r00,r01,r02),(r10,r11,r12),(r20,r21,r22)) := M in
  clip1 Rops r20 = r20 /\ clip1 Rops r02 = r02 /\ clip1 Rops r12 = r12.
Proof.
  intros M H. destruct M as [[[[r00 r01] r02] [[r10 r11] r12]] [[r20 r21] r22]]. so3_facts H.
  repeat split; apply clip1_in.
  - apply (sq_le1 r20 (r21*r21+r22*r22)); [lra|clear; nra].
  - apply (sq_le1 r02 (r00*r00+r01*r01)); [lra|clear; nra].
  - apply (sq_le1 r12 (r10*r10+r11*r11)); [lra|clear; nra].
Qed.
Print Assumptions C05_rpy_clip_invisible_on_SO3.
Theorem C05_rpy_total_former_witness :
  exists M : M33 R, maxabs33 (defect33 M) <= 3 * eps Rops /\ det33 Rops M = 1 + eps Rops /\
    exists y, m_tr2rpy_zyx_rad Rops M = (0, PI/2, y).
Proof.
  exists ((0,0,1),(0,1,0),(-(1 + eps Rops),0,0)). split; [|split].
  - unfold defect33, maxabs33. lin_simpl.
    repeat match goal with |- context[Rabs ?x] => let v := fresh in
       assert (v : Rabs x <= 3 * / 4503599627370496) by (apply Rabs_le; lra); revert v; generalize (Rabs x); intros end.
    repeat apply Rmax_lub; assumption.
  - lin_simpl. ring.
  - rewrite m_zyx. unfold tr2rpy_zyx.
    assert (P : 0 < eps Rops < 1) by (rewrite eps_val; lra).
    assert (A1 : Rabs (- (1 + eps Rops)) = 1 + eps Rops) by (rewrite Rabs_Ropp; apply Rabs_right; lra).
    assert (S : is_sing Rops (IZR c_tr2rpy_zyx) (- (1 + eps Rops)) = true).
    { apply is_sing_true. rewrite A1. rewrite Rabs_right by lra. unfold c_tr2rpy_zyx. lra. }
    rewrite S. unfold rpy_zyx_sing, asin_clip.
    assert (C : clip1 Rops (- (1 + eps Rops)) = Ropp 1).
    { unfold clip1. cbn [ltb neg one Rops]. unfold Rltb. destruct (Rlt_dec (- (1 + eps Rops)) (- (1))); [reflexivity|lra]. }
    rewrite C. eexists. cbn [neg zero Rops]. rewrite asin_opp, asin_1. repeat f_equal. lra.
Qed.
Print Assumptions C05_rpy_total_former_witness.

(* ranges: roll, yaw in [-pi, pi], pitch in [-pi/2, pi/2] -- for every input matrix *)
Theorem C05_rpy_ranges : forall (M : M33 R) r p y,
  (m_tr2rpy_zyx_rad Rops M = (r,p,y) \/ m_tr2rpy_xyz_rad Rops M = (r,p,y) \/ m_tr2rpy_yxz_rad Rops M = (r,p,y)) ->
  Rabs r <= PI /\ Rabs p <= PI/2 /\ Rabs y <= PI.
Proof.
  intros M r p y. rewrite m_zyx, m_xyz, m_yxz. intros [E|[E|E]];
    [eapply tr2rpy_zyx_range|eapply tr2rpy_xyz_range|eapply tr2rpy_yxz_range]; exact E.
Qed.
Print Assumptions C05_rpy_ranges.

Definition eul_off_band (M : M33 R) : Prop :=
  let '((r00,r01,r02),(r10,r11,r12),(r20,r21,r22)) := M in
  ~ (Rabs r02 < IZR c_tr2eul_1 * eps Rops /\ Rabs r12 < IZR c_tr2eul_2 * eps Rops).
Lemma eul_off_band_sing M : eul_off_band M -> eul_is_sing Rops (IZR c_tr2eul_1) (IZR c_tr2eul_2) M = false.
Proof.
  destruct M as [[[[r00 r01] r02] [[r10 r11] r12]] [[r20 r21] r22]]. unfold eul_off_band, eul_is_sing. sm_simpl. fold (eps Rops).
  intros H. destruct (Rltb (Rabs r02) _) eqn:E1; [|reflexivity]. destruct (Rltb (Rabs r12) _) eqn:E2; [|reflexivity].
  exfalso. apply H. split; apply Rltb_true; assumption.
Qed.

Theorem C05_eul_right_inverse_partial : forall (M : M33 R) (flip : bool) f t s,
  SO3 M -> eul_off_band M ->
  (if flip then m_tr2eul_flip_rad Rops M else m_tr2eul_noflip_rad Rops M) = (f, t, s) -> tr_eul2r Rops f t s = M.
Proof.
  intros M flip f t s H Hb E. rewrite m_eul in E. rewrite C05_eul2r_order.
  pose proof (tr2eul_right_inverse (IZR c_tr2eul_1) (IZR c_tr2eul_2) flip M H ltac:(thr) ltac:(thr) (eul_off_band_sing M Hb)) as RI.
  rewrite E in RI. exact RI.
Qed.
Print Assumptions C05_eul_right_inverse_partial.
Example C05_eul_nonvacuous : SO3 (roty_cs Rops 0 1) /\ eul_off_band (roty_cs Rops 0 1).
Proof.
  split; [apply SO3_roty; ring|]. unfold eul_off_band. lin_simpl. intros [A _]. rewrite Rabs_R1 in A.
  unfold c_tr2eul_1 in A. cbn in A. lra.
Qed.

Theorem C05_eul_singular_exact : forall (M : M33 R) (flip : bool) f t s, SO3 M ->
  (let '((r00,r01,r02),(r10,r11,r12),(r20,r21,r22)) := M in r02 = 0 /\ r12 = 0) ->
  (if flip then m_tr2eul_flip_rad Rops M else m_tr2eul_noflip_rad Rops M) = (f, t, s) -> f = 0 /\ tr_eul2r Rops f t s = M.
Proof.
  intros M flip f t s H Hz E. rewrite m_eul in E. rewrite C05_eul2r_order.
  destruct (tr2eul_singular_exact (IZR c_tr2eul_1) (IZR c_tr2eul_2) flip M H ltac:(thr) ltac:(thr) Hz) as [S RI].
  rewrite E in RI. split; [|exact RI]. unfold tr2eul in E. rewrite S in E.
  destruct M as [[[[r00 r01] r02] [[r10 r11] r12]] [[r20 r21] r22]]. unfold eul_sing in E. injection E; intros; subst; reflexivity.
Qed.
Print Assumptions C05_eul_singular_exact.
Example C05_eul_singular_nonvacuous : SO3 (I33 Rops) /\ (let '((_,_,r02),(_,_,r12),_) := I33 Rops in r02 = 0 /\ r12 = 0).
Proof. split; [apply SO3_I|]. lin_simpl. split; reflexivity. Qed.

Theorem C05_eul_ranges : forall (M : M33 R) (flip : bool) f t s,
  (if flip then m_tr2eul_flip_rad Rops M else m_tr2eul_noflip_rad Rops M) = (f, t, s) ->
  Rabs f <= PI /\ Rabs t <= PI /\ Rabs s <= PI.
Proof. intros M flip f t s E. rewrite m_eul in E. eapply tr2eul_range; exact E. Qed.
Print Assumptions C05_eul_ranges.

Theorem C05_xyt_right_inverse : forall A : M33 R, SE2 A -> tr_xyt2tr Rops (m_tr2xyt_rad Rops A) = A.
Proof.
  intros A H. pose proof (tr2xyt_right_inverse A H) as E. unfold m_tr2xyt_rad.
  destruct (tr2xyt Rops false A) as [[x y] t] eqn:Q. destruct (C05_planar_constructors x y t) as (_ & ->). exact E.
Qed.
Print Assumptions C05_xyt_right_inverse.
Example C05_xyt_nonvacuous : SE2 (tr_xyt2tr Rops (1, 2, 0)).
Proof. autounfold with smgen. sm_simpl. rewrite cos_0, sin_0. unfold SE2. lin_simpl. unfold SO2. repeat split; ring. Qed.

Theorem C05_theta_right_inverse : forall A : M22 R, SO2 A ->
  tr_rot2 Rops (m_theta2_rad Rops A) = A /\ Rabs (m_theta2_rad Rops A) <= PI.
Proof.
  intros A H. split; [|apply theta2_range].
  destruct (C05_planar_constructors 0 0 (m_theta2_rad Rops A)) as (-> & _). apply (theta2_right_inverse A H).
Qed.
Print Assumptions C05_theta_right_inverse.

Theorem C05_extraction_deg : forall (M : M33 R) (A2 : M22 R),
  let sc := fun a : V3 R => let '(r,p,y) := a in (r*(180/PI), p*(180/PI), y*(180/PI)) in
  m_tr2rpy_zyx_deg Rops M = sc (m_tr2rpy_zyx_rad Rops M) /\
  m_tr2rpy_xyz_deg Rops M = sc (m_tr2rpy_xyz_rad Rops M) /\
  m_tr2rpy_yxz_deg Rops M = sc (m_tr2rpy_yxz_rad Rops M) /\
  m_tr2eul_noflip_deg Rops M = sc (m_tr2eul_noflip_rad Rops M) /\
  m_tr2eul_flip_deg Rops M = sc (m_tr2eul_flip_rad Rops M) /\
  m_theta2_deg Rops A2 = m_theta2_rad Rops A2 * (180/PI) /\
  m_tr2xyt_deg Rops M = (let '(x,y,t) := m_tr2xyt_rad Rops M in (x, y, t*(180/PI))).
Proof.
  intros. unfold sc, m_tr2rpy_zyx_deg, m_tr2rpy_zyx_rad, m_tr2rpy_xyz_deg, m_tr2rpy_xyz_rad, m_tr2rpy_yxz_deg, m_tr2rpy_yxz_rad,
    m_tr2eul_noflip_deg, m_tr2eul_noflip_rad, m_tr2eul_flip_deg, m_tr2eul_flip_rad, m_theta2_deg, m_theta2_rad,
    m_tr2xyt_deg, m_tr2xyt_rad, tr2rpy_zyx_u, tr2rpy_xyz_u, tr2rpy_yxz_u, tr2eul_u.
  split; [|split; [|split; [|split; [|split; [|split]]]]].
  1-5: match goal with |- scale_unit _ true ?x = _ => destruct x as [[? ?] ?] end; unfold scale_unit, to_deg; sm_simpl; reflexivity.
  - apply theta2_deg.
  - apply tr2xyt_deg.
Qed.
Print Assumptions C05_extraction_deg.
