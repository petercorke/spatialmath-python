(* C16 (c) -- MIXED symbolic / numeric arguments.
   (iii) a call with some arguments numeric returns the all-symbolic result specialised at those numbers.
   Numeric arguments that enter linearly (translations, vector components; ints and dyadic floats) are exact, so the
   statement is an identity over R.  A numeric ANGLE enters through the doubles cos(0.1), sin(0.1): the statement is
   then about the reference built from those two doubles (k_cos01, k_sin01: generated from Python's math, not from
   the library); angle 0.0 is exact (cos 0 = 1, sin 0 = 0).
   (ii) structural constants of mixed results, by conversion over an abstract ops record. *)
From Coq Require Import Reals ZArith Lra List.
From SM Require Import Base.Ops Base.Lin Base.RInst Base.RLin Model.C16_struct Model.C16_ref Model.C16_open.
From SMgen Require Import Traces_C16.
Import ListNotations.
Open Scope R_scope.

Ltac gen_ring0 := ref_unfold; rewrite ?cos_0, ?sin_0; tuple_eq ltac:(ring).

Theorem C16_mixed_trot : forall t : R,
  tr_trotx_tnum Rops t = tr_trotx_t Rops t (1,2,3) /\ tr_troty_tnum Rops t = tr_troty_t Rops t (1,2,3) /\
  tr_trotz_tnum Rops t = tr_trotz_t Rops t (1,2,3).
Proof. intros; repeat split; ref_ring. Qed.
Print Assumptions C16_mixed_trot.

Theorem C16_mixed_trot_structural : forall (T : Type) (O : ops T) (t : T),
  matches O (hom44 pat_rotx [P1;Px;Px]) (fl44 (tr_trotx_tnum O t)) /\ matches O (hom44 pat_roty [P1;Px;Px]) (fl44 (tr_troty_tnum O t)) /\
  matches O (hom44 pat_rotz [P1;Px;Px]) (fl44 (tr_trotz_tnum O t)).
Proof. intros; repeat split; reflexivity. Qed.
Print Assumptions C16_mixed_trot_structural.

(* numeric angle 0.3, symbolic translation (repaired by e615f54): rotation from the doubles (cos 0.3, sin 0.3),
   translation stored unchanged *)
Theorem C16_mixed_trot_num : forall v : V3 R,
  tr_trotx_num_t Rops v = rt2tr3 Rops (rotx_cs Rops (k_cos03 Rops) (k_sin03 Rops)) v /\
  tr_troty_num_t Rops v = rt2tr3 Rops (roty_cs Rops (k_cos03 Rops) (k_sin03 Rops)) v /\
  tr_trotz_num_t Rops v = rt2tr3 Rops (rotz_cs Rops (k_cos03 Rops) (k_sin03 Rops)) v.
Proof. intros; repeat split; ref_field. Qed.
Print Assumptions C16_mixed_trot_num.

Theorem C16_mixed_trot_num_structural : forall (T : Type) (O : ops T) (v : V3 T),
  matches O (hom44 pat_rotx txxx) (fl44 (tr_trotx_num_t O v)) /\ matches O (hom44 pat_roty txxx) (fl44 (tr_troty_num_t O v)) /\
  matches O (hom44 pat_rotz txxx) (fl44 (tr_trotz_num_t O v)) /\
  transl3 (tr_trotx_num_t O v) = v /\ transl3 (tr_troty_num_t O v) = v /\ transl3 (tr_trotz_num_t O v) = v.
Proof. intros; destruct v as [[x y] z]; repeat split; reflexivity. Qed.
Print Assumptions C16_mixed_trot_num_structural.

Theorem C16_mixed_transl : forall x y : R,
  tr_transl_x23 Rops x = tr_transl_xyz Rops x 2 3 /\ tr_transl_1y35 Rops y = tr_transl_xyz Rops 1 y (7/2) /\
  tr_transl_listx23 Rops x = tr_transl_list Rops (x,2,3) /\ tr_SE3_ctor_x23 Rops x = tr_SE3_ctor_xyz Rops x 2 3.
Proof. intros; repeat split; ref_field. Qed.
Print Assumptions C16_mixed_transl.

Theorem C16_mixed_transl_structural : forall (T : Type) (O : ops T) (x : T),
  matches O (hom44 pat_I33 txxx) (fl44 (tr_transl_x23 O x)) /\ matches O (hom44 pat_I33 [P1;Px;Px]) (fl44 (tr_transl_1y35 O x)) /\
  matches O (hom44 pat_I33 txxx) (fl44 (tr_transl_listx23 O x)) /\ matches O (hom44 pat_I33 txxx) (fl44 (tr_SE3_ctor_x23 O x)).
Proof. intros; repeat split; reflexivity. Qed.
Print Assumptions C16_mixed_transl_structural.

(* Euler angles with one numeric angle *)
(* middle angle 0.0 (exact): the all-symbolic result at theta = 0 *)
Theorem C16_mixed_eul_zero : forall a c : R,
  tr_eul2r_a0c Rops a c = tr_eul2r_list Rops (a,0,c) /\ tr_eul2tr_a0c Rops a c = tr_eul2tr_list Rops (a,0,c) /\
  tr_SE3_RPY_a0c Rops a c = tr_SE3_RPY_zyx Rops (a,0,c).
Proof. intros; repeat split; gen_ring0. Qed.
Print Assumptions C16_mixed_eul_zero.

(* Rz(a) Ry(0.0) Rz(c) has the zero pattern of a rotation about z; the numeric Ry(0.0) contributes exact 0 / 1 *)
Theorem C16_mixed_eul_zero_structural : forall (T : Type) (O : ops T) (a c : T),
  matches O pat_rotz (fl33 (tr_eul2r_a0c O a c)) /\ matches O (hom44 pat_rotz t000) (fl44 (tr_eul2tr_a0c O a c)) /\
  matches O (hom44 [Px;Px;Px; Px;Px;Px; P0;Px;Px] t000) (fl44 (tr_SE3_RPY_a0c O a c)).
Proof. intros; repeat split; reflexivity. Qed.
Print Assumptions C16_mixed_eul_zero_structural.

(* first angle the double 0.1: Rz from the doubles (cos 0.1, sin 0.1), then Ry(b) Rz(c) *)
Theorem C16_mixed_eul_num : forall b c : R,
  tr_eul2r_nbc Rops b c =
    mmul33 Rops (mmul33 Rops (rotz_cs Rops (k_cos01 Rops) (k_sin01 Rops)) (roty_ref Rops b)) (rotz_ref Rops c) /\
  tr_eul2tr_nbc Rops b c =
    r2t3 Rops (mmul33 Rops (mmul33 Rops (rotz_cs Rops (k_cos01 Rops) (k_sin01 Rops)) (roty_ref Rops b)) (rotz_ref Rops c)).
Proof. intros; split; ref_field. Qed.
Print Assumptions C16_mixed_eul_num.

(* the two doubles are cos/sin of (almost) the same angle: the mixed result is a rotation up to 2^-52 *)
Theorem C16_mixed_eul_num_consts :
  Rabs (k_cos01 Rops * k_cos01 Rops + k_sin01 Rops * k_sin01 Rops - 1) <= / 4503599627370496.
Proof. autounfold with smgen; sm_simpl. apply Rabs_le. split; lra. Qed.
Print Assumptions C16_mixed_eul_num_consts.

(* vectors / skew / delta with numeric components *)
Theorem C16_mixed_vectors : forall (x a c z : R) (u : V3 R),
  tr_delta2tr_mixed Rops x a c = tr_delta2tr Rops (x,2,3,a,1/2,c) /\
  tr_skewa6_mixed Rops x a c = tr_skewa6 Rops (x,2,3,a,1/2,c) /\
  tr_skew3_mixed Rops x z = tr_skew3 Rops (x,2,z) /\
  tr_cross_mixed Rops u = tr_cross Rops u (1,2,7/2) /\
  tr_norm3_mixed Rops x = tr_norm3 Rops (x,2,7/2).
Proof.
  intros; repeat split; try ref_field.
  ref_unfold. f_equal. field.
Qed.
Print Assumptions C16_mixed_vectors.

Theorem C16_mixed_vectors_structural : forall (T : Type) (O : ops T) (x a c z : T),
  matches O pat_delta2tr (fl44 (tr_delta2tr_mixed O x a c)) /\ matches O pat_skewa6 (fl44 (tr_skewa6_mixed O x a c)) /\
  matches O pat_skew3 (fl33 (tr_skew3_mixed O x z)).
Proof. intros; repeat split; reflexivity. Qed.
Print Assumptions C16_mixed_vectors_structural.

(* numeric rotation block, symbolic translation *)
Definition ROT_A : M33 R := ((0,-1,0),(1,0,0),(0,0,1)).
Definition TR_A : M44 R := ((0,-1,0,1/2),(1,0,0,-2),(0,0,1,4),(0,0,0,1)).

Theorem C16_mixed_trinv : forall (v : V3 R) (Y : M44 R),
  tr_trinv_numR Rops v = tr_trinv Rops (rt2tr3 Rops ROT_A v) /\
  tr_tr2delta_numT0 Rops Y = tr_tr2delta2 Rops TR_A Y.
Proof. intros; unfold ROT_A, TR_A; split; ref_field. Qed.
Print Assumptions C16_mixed_trinv.

Theorem C16_mixed_trinv_structural : forall (T : Type) (O : ops T) (v : V3 T),
  matches O (hom44 [P0;P1;P0; Px;P0;P0; P0;P0;P1] txxx) (fl44 (tr_trinv_numR O v)).
Proof. intros; destruct v as [[x y] z]; repeat split; reflexivity. Qed.
Print Assumptions C16_mixed_trinv_structural.
Example C16_TR_A_is_SE3 : SE3 TR_A.
Proof. unfold TR_A, SE3, SO3; lin_simpl. split; [repeat split; ring | reflexivity]. Qed.

(* pose operators with one numeric operand *)
Theorem C16_mixed_pose_ops : forall (X : M44 R) (A : M33 R) (a b z : R),
  tr_SE3_pt_num Rops X = tr_SE3_pt Rops X (1,2,3) /\
  tr_SO3_pt_num Rops A = tr_SO3_pt Rops A (1,2,3) /\
  tr_SE3_Tx2_mul Rops X = tr_SE3_mul Rops (tr_SE3_Tx Rops 2) X /\
  tr_SE3_Rx_Tx25 Rops a = tr_SE3_mul Rops (tr_SE3_Rx Rops a) (tr_SE3_Tx Rops (5/2)) /\
  (* and a product of three symbolic poses is the product of the matrices *)
  tr_SE3_RxRyTz Rops a b z = tr_SE3_mul Rops (tr_SE3_mul Rops (tr_SE3_Rx Rops a) (tr_SE3_Ry Rops b)) (tr_SE3_Tz Rops z).
Proof. intros; repeat split; ref_field. Qed.
Print Assumptions C16_mixed_pose_ops.

Theorem C16_mixed_pose_ops_structural : forall (T : Type) (O : ops T) (X : M44 T) (a b z : T),
  matches O (hom44 pat_any33 txxx) (fl44 (tr_SE3_Tx2_mul O X)) /\
  matches O (hom44 pat_rotx [Px;P0;P0]) (fl44 (tr_SE3_Rx_Tx25 O a)) /\
  matches O (hom44 [Px;P0;Px; Px;Px;Px; Px;Px;Px] txxx) (fl44 (tr_SE3_RxRyTz O a b z)).
Proof. intros; destruct_tuples; repeat split; reflexivity. Qed.
Print Assumptions C16_mixed_pose_ops_structural.
