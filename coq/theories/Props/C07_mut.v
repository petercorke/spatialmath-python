(* C07 -- values that arrive as OBJECTS: the list mutators of SMUserList (x[i] = v, append, insert, extend) and
   the constructor given an object.  Model: theories/Model/C07_Ctor.v (section "Objects as arguments"), hand-written,
   mirrors the code as it is; tied to /repo on every run by the exhaustive table of props/C07.py
   (receiver class x mutator x index x receiver length x operand class incl. sub/superclass pairs x operand length 0,1,2).
   Lists and finite enumerations only: every theorem is axiom-free.

   FULL statement (constructor): ctor_obj r x = Ok d -> all_member r d          -- proved, no guard (C07_ctor_obj_sound), since the
       fixes ac96bee (SO3(SE3 object) rejected) and 5c063cb (conversion keeps one element per value).
   FULL statement (mutators):   all_member r d -> mutate_impl r d m x = Ok d' -> all_member r d'
       -- proved, no guard (C07_mut_preserves), for x[i] = v, x[lo:hi] = v, append, insert, extend, since the fixes b1d6482
       (exactly one value required) and fcdd4db (slice index rejected).
   What the exact-type guard type(self) == type(x) buys is proved separately: every operand of another class -- subclass,
   superclass, unrelated, bare ndarray -- is rejected by every mutator, and weakening the guard to isinstance breaks the invariant. *)
From Coq Require Import List Bool Arith.
Import ListNotations.
From SM Require Import Model.C07_Ctor.

Lemma all_member_app r a b : all_member r a -> all_member r b -> all_member r (a ++ b).
Proof. unfold all_member. intros. apply Forall_app; split; assumption. Qed.
Lemma all_member_firstn r n d : all_member r d -> all_member r (firstn n d).
Proof. unfold all_member. intros H. rewrite <- (firstn_skipn n d) in H. now apply Forall_app in H. Qed.
Lemma all_member_skipn r n d : all_member r d -> all_member r (skipn n d).
Proof. unfold all_member. intros H. rewrite <- (firstn_skipn n d) in H. now apply Forall_app in H. Qed.
Lemma all_member_repeat r c n : member r (V c) = true -> all_member r (repeat (V c) n).
Proof. unfold all_member. intros H. induction n; simpl; constructor; auto. Qed.
Lemma all_member_replace r d : forall n e, member r e = true -> all_member r d -> all_member r (replace_nth d n e).
Proof.
  unfold all_member. induction d as [|h t IH]; intros n e He H; simpl; [destruct n; constructor|].
  inversion H; subst. destruct n; constructor; auto.
Qed.
Lemma exact_member r o : exact r o = true -> member r (V o) = true.
Proof. intros H. unfold member. rewrite H. reflexivity. Qed.
Lemma exact_refl_iff r o : exact r o = true -> o = r.
Proof. destruct r, o; simpl; intros; try discriminate; reflexivity. Qed.

(* every operand whose class is not exactly the receiver's is rejected by every mutator, whatever its length *)
Theorem C07_mut_foreign_rejected : forall r d m x, exact r (ocl x) = false -> mutate_impl r d m x = Err ValueError.
Proof. intros r d m x H. unfold mutate_impl, mutate. rewrite H. reflexivity. Qed.
Print Assumptions C07_mut_foreign_rejected.
Example C07_mut_foreign_rejected_nonvacuous :
  exact oSO3 oSE3 = false /\ exact oSO2 oSE2 = false /\ exact oSE3 oSO3 = false /\ exact oUQ oQ = false /\ exact oQ oUQ = false /\
  exact oTw3 oTw2 = false /\ exact oSO3 oArr = false /\ subclass_of oSE3 oSO3 = true /\ subclass_of oSE2 oSO2 = true.
Proof. repeat split. Qed.
(* with the guard weakened to isinstance the invariant breaks: an SO3 comes to hold an SE(3) matrix *)
Theorem C07_mut_isinstance_guard_refuted : exists r d m x d',
  all_member r d /\ mutate (fun r o => subclass_of o r) r d m x = Ok d' /\ ~ all_member r d'.
Proof.
  exists oSO3, [V oSO3; V oSO3; V oSO3], (SetInt 1), (Opd oSE3 1), [V oSO3; V oSE3; V oSO3]. repeat split.
  - repeat constructor.
  - intros H. inversion H as [|? ? _ H1]; subst. inversion H1; subst. discriminate.
Qed.
Print Assumptions C07_mut_isinstance_guard_refuted.

(* mutators preserve membership: the FULL statement, no guard *)
Theorem C07_mut_preserves : forall r d m x d', all_member r d -> mutate_impl r d m x = Ok d' -> all_member r d'.
Proof.
  intros r d m x d' Hd H. unfold mutate_impl, mutate in H.
  destruct (exact r (ocl x)) eqn:Ex; cbn [negb] in H; [|discriminate].
  pose proof (exact_member _ _ Ex) as Hm.
  destruct m; [| | | |injection H as <-; apply all_member_app; auto; apply all_member_repeat; auto].
  (* the other four take an operand of exactly one value, and store it *)
  all: destruct (olen x =? 1) eqn:E1; cbn [negb] in H; [|discriminate].
  all: assert (HA : member r (opd_A x) = true) by (unfold opd_A; rewrite E1; exact Hm).
  - destruct (pos <? length d); [|discriminate]. injection H as <-. apply all_member_replace; assumption.
  - discriminate.
  - injection H as <-. apply all_member_app; [exact Hd|]. constructor; [exact HA | constructor].
  - injection H as <-. apply all_member_app; [apply all_member_firstn; exact Hd|].
    constructor; [exact HA | apply all_member_skipn; exact Hd].
Qed.
Print Assumptions C07_mut_preserves.
Example C07_mut_preserves_nonvacuous :
  (exists d', mutate_impl oSE3 [V oSE3] Append (Opd oSE3 1) = Ok d') /\
  (exists d', mutate_impl oUQ [V oUQ] Extend (Opd oUQ 2) = Ok d') /\
  (exists d', mutate_impl oTw3 [V oTw3; V oTw3] (SetInt 1) (Opd oTw3 1) = Ok d').
Proof. repeat split; eexists; reflexivity. Qed.
(* assignment to a slice is always rejected (fix fcdd4db: it used to store the rows of the operand's matrix) *)
Theorem C07_mut_slice_rejected : forall r d lo hi x, mutate_impl r d (SetSlice lo hi) x = Err ValueError.
Proof.
  intros. unfold mutate_impl, mutate. destruct (negb (exact r (ocl x))); [reflexivity|]. destruct (negb (olen x =? 1)); reflexivity.
Qed.
Print Assumptions C07_mut_slice_rejected.
(* extend is sound at full strength, for operands of any length *)
Theorem C07_mut_extend_preserves : forall r d x d', all_member r d -> mutate_impl r d Extend x = Ok d' -> all_member r d'.
Proof. intros r d x d' Hd H. apply (C07_mut_preserves r d Extend x d'); auto. Qed.
Print Assumptions C07_mut_extend_preserves.
(* operands that do not hold exactly one value -- empty or multi-valued -- are rejected by x[i] = v, x[lo:hi] = v, append, insert *)
Theorem C07_mut_not_single_rejected : forall r d m x, m <> Extend -> olen x <> 1 -> exists e, mutate_impl r d m x = Err e.
Proof.
  intros r d m x Hm Hl. unfold mutate_impl, mutate. destruct (negb (exact r (ocl x))); [eexists; reflexivity|].
  apply Nat.eqb_neq in Hl. rewrite Hl. destruct m; try (eexists; reflexivity). contradiction.
Qed.
Print Assumptions C07_mut_not_single_rejected.

(* FULL statement, no guard (before ac96bee / 5c063cb: SO3(SE3 object) held 4x4 matrices, Twist3(SE3 object of length <> 1) a list) *)
Theorem C07_ctor_obj_sound : forall r x d, ctor_obj r x = Ok d -> all_member r d.
Proof.
  intros r [o n] d H. unfold ctor_obj in H. cbn [ocl olen] in *.
  destruct (subclass_of o r && same_shape o r) eqn:Es.
  - injection H as <-. apply all_member_repeat. destruct r, o; cbn in *; try discriminate; reflexivity.
  - destruct (converts r o) eqn:Ec.
    + injection H as <-. apply all_member_repeat. destruct r, o; cbn in *; try discriminate; reflexivity.
    + destruct r; try discriminate. destruct o; try (destruct (n =? 0); discriminate); injection H as <-; apply all_member_repeat; reflexivity.
Qed.
Print Assumptions C07_ctor_obj_sound.
Example C07_ctor_obj_sound_nonvacuous :
  (exists d, ctor_obj oSE3 (Opd oSE3 2) = Ok d) /\ (exists d, ctor_obj oUQ (Opd oSO3 2) = Ok d) /\
  (exists d, ctor_obj oTw3 (Opd oSE3 2) = Ok d /\ length d = 2).
Proof. repeat split; eexists; try split; reflexivity. Qed.
(* an object of the subclass with another value shape is rejected, whatever its length (fix ac96bee) *)
Theorem C07_ctor_obj_subclass_rejected : forall n, ctor_obj oSO3 (Opd oSE3 n) = Err ValueError /\ ctor_obj oSO2 (Opd oSE2 n) = Err ValueError.
Proof. intros n. split; reflexivity. Qed.
Print Assumptions C07_ctor_obj_subclass_rejected.
(* objects of unrelated classes, of a SUPERclass and of a SUBclass with another value shape are rejected by every constructor of the property's classes *)
Theorem C07_ctor_obj_rejects : forall r x, r <> oQ -> r <> oArr -> exact r (ocl x) = false -> converts r (ocl x) = false ->
  (r = oUQ -> ocl x <> oSO3 /\ ocl x <> oSE3) -> exists e, ctor_obj r x = Err e.
Proof.
  intros r [o n] Hq Ha Hs Hc Hu. unfold ctor_obj. cbn [ocl olen] in *.
  assert (E : subclass_of o r && same_shape o r = false).
  { destruct r, o; cbn in *; try reflexivity; try discriminate; contradiction. }
  rewrite E, Hc. destruct r; try (eexists; reflexivity); try contradiction.
  destruct (Hu eq_refl) as [H1 H2]. destruct o; try contradiction; destruct (n =? 0); eexists; reflexivity.
Qed.
Print Assumptions C07_ctor_obj_rejects.

(* constructor given a list of objects of the receiver's class *)
(* the constructor returns only when every element is of the receiver's exact class and holds one value: then it stores those values *)
Lemma ctor_objs_ok r l d : ctor_objs r l = Ok d ->
  d = map opd_A l /\ forall x, In x l -> exact r (ocl x) = true /\ olen x = 1.
Proof.
  unfold ctor_objs. destruct l as [|h t]; [intros [= <-]; split; [reflexivity | intros x []]|].
  set (L := h :: t). clearbody L.
  destruct (negb (exact r (ocl h))); [discriminate|].
  destruct (forallb (fun x => exact r (ocl x)) L) eqn:E1; cbn [negb]; [|discriminate].
  destruct (forallb (fun x => olen x =? 1) L) eqn:E2; cbn [negb]; [|discriminate].
  intros [= <-]. rewrite forallb_forall in E1, E2. split; [reflexivity|].
  intros x Hx. split; [apply E1, Hx | apply Nat.eqb_eq, E2, Hx].
Qed.

Theorem C07_ctor_objs_sound : forall r l d, ctor_objs r l = Ok d -> all_member r d.
Proof.
  intros r l d H. apply ctor_objs_ok in H. destruct H as [-> H]. apply Forall_forall. intros e He.
  apply in_map_iff in He. destruct He as [x [<- Hx]]. destruct (H x Hx) as [Ex E1].
  unfold opd_A. rewrite E1. apply exact_member, Ex.
Qed.
Print Assumptions C07_ctor_objs_sound.
(* an element that is empty or multi-valued, at any position, makes the constructor raise (fix 2eab8b7) *)
Theorem C07_ctor_objs_not_single_rejected : forall r l x, In x l -> olen x <> 1 -> exists e, ctor_objs r l = Err e.
Proof.
  intros r l x Hin Hl. destruct (ctor_objs r l) as [d|e] eqn:E; [|now exists e].
  apply ctor_objs_ok in E. destruct E as [_ E]. destruct (E x Hin). contradiction.
Qed.
Print Assumptions C07_ctor_objs_not_single_rejected.
Example C07_ctor_objs_nonvacuous :
  (exists d, ctor_objs oSE3 [Opd oSE3 1; Opd oSE3 1] = Ok d /\ length d = 2) /\ ctor_objs oSE3 [Opd oSE3 1; Opd oSE3 2] = Err ValueError /\
  ctor_objs oSO3 [Opd oSO3 1; Opd oSE3 1] = Err AssertionError.
Proof. repeat split. eexists; split; reflexivity. Qed.
