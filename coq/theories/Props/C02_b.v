(* C02 (part b) -- group laws of the 2-D pose classes SO2 and SE2 and of base.trinv2.
   Since /repo 1c511ed SO2.inv() / SE2.inv() build their result with check=False, like the 3-D classes: their traces
   are the plain transpose / structured inverse for ALL matrices, with no validity path condition (props/C02.py fails
   closed if a comparison is recorded while tracing a pose class), so every statement below has exactly the shape
   of its 3-D counterpart in C02_a.v. *)
From Coq Require Import Reals ZArith Lra.
From SM Require Import Base.Ops Base.Lin Base.RInst Base.RLin Model.C02_Pow.
From SMgen Require Import Traces_C02.
Open Scope R_scope.

Theorem C02_SO2_mul_is_matmul : forall X Y : M22 R, tr_SO2_mul Rops X Y = mmul22 Rops X Y.
Proof. c02_ring. Qed.
Print Assumptions C02_SO2_mul_is_matmul.

Theorem C02_SO2_assoc : forall X Y Z : M22 R,
  tr_SO2_mul Rops (tr_SO2_mul Rops X Y) Z = tr_SO2_mul Rops X (tr_SO2_mul Rops Y Z) /\
  tr_SO2_assoc_l Rops X Y Z = tr_SO2_assoc_r Rops X Y Z /\
  tr_SO2_assoc_l Rops X Y Z = tr_SO2_mul Rops (tr_SO2_mul Rops X Y) Z.
Proof.
  intros. rewrite !C02_SO2_mul_is_matmul.
  assert (El : tr_SO2_assoc_l Rops X Y Z = mmul22 Rops (mmul22 Rops X Y) Z) by c02_ring.
  assert (Er : tr_SO2_assoc_r Rops X Y Z = mmul22 Rops X (mmul22 Rops Y Z)) by c02_ring.
  rewrite El, Er. repeat split; try reflexivity; apply mmul22_assoc.
Qed.
Print Assumptions C02_SO2_assoc.

Theorem C02_SO2_identity : forall X : M22 R, tr_SO2_id_r Rops X = X /\ tr_SO2_id_l Rops X = X.
Proof. intros; split; c02_ring. Qed.
Print Assumptions C02_SO2_identity.

Theorem C02_SO2_inv_is_transpose : forall X : M22 R, tr_SO2_inv Rops X = mtr22 X.
Proof. c02_ring. Qed.
Print Assumptions C02_SO2_inv_is_transpose.

Theorem C02_SO2_inverse_defect : forall X : M22 R,
  tr_SO2_x_xinv Rops X = mmul22 Rops X (mtr22 X) /\ tr_SO2_xinv_x Rops X = mmul22 Rops (mtr22 X) X /\
  tr_SO2_mul Rops X (tr_SO2_inv Rops X) = tr_SO2_x_xinv Rops X /\
  tr_SO2_mul Rops (tr_SO2_inv Rops X) X = tr_SO2_xinv_x Rops X.
Proof. intros; repeat split; c02_ring. Qed.
Print Assumptions C02_SO2_inverse_defect.

Theorem C02_SO2_inverse : forall X : M22 R, SO2 X ->
  tr_SO2_mul Rops X (tr_SO2_inv Rops X) = I22 Rops /\ tr_SO2_mul Rops (tr_SO2_inv Rops X) X = I22 Rops /\
  tr_SO2_x_xinv Rops X = I22 Rops /\ tr_SO2_xinv_x Rops X = I22 Rops.
Proof.
  intros X H. destruct (C02_SO2_inverse_defect X) as (E1 & E2 & E3 & E4).
  rewrite E3, E4, E1, E2, (SO2_inv_r X H), (SO2_inv_l X H). repeat split.
Qed.
Print Assumptions C02_SO2_inverse.

Theorem C02_SO2_inv_antihom : forall X Y : M22 R,
  tr_SO2_inv_of_mul Rops X Y = tr_SO2_mul_of_inv Rops X Y /\
  tr_SO2_inv Rops (tr_SO2_mul Rops X Y) = tr_SO2_mul Rops (tr_SO2_inv Rops Y) (tr_SO2_inv Rops X) /\
  tr_SO2_inv_of_mul Rops X Y = tr_SO2_inv Rops (tr_SO2_mul Rops X Y).
Proof. intros; repeat split; c02_ring. Qed.
Print Assumptions C02_SO2_inv_antihom.

Theorem C02_SO2_div : forall X Y : M22 R, tr_SO2_div Rops X Y = tr_SO2_mul Rops X (tr_SO2_inv Rops Y).
Proof. c02_ring. Qed.
Print Assumptions C02_SO2_div.

(* on SO(2) the transpose is the true matrix inverse (minv22_SO2 of Model/C02_Pow.v) *)
Theorem C02_SO2_inv_is_matrix_inverse : forall X : M22 R, SO2 X -> tr_SO2_inv Rops X = minv22 Rops X.
Proof. intros X H. rewrite C02_SO2_inv_is_transpose. symmetry. apply minv22_SO2. exact H. Qed.
Print Assumptions C02_SO2_inv_is_matrix_inverse.

Theorem C02_SE2_mul_is_matmul : forall X Y : M33 R, tr_SE2_mul Rops X Y = mmul33 Rops (aff3 Rops X) (aff3 Rops Y).
Proof. c02_ring. Qed.
Print Assumptions C02_SE2_mul_is_matmul.

Theorem C02_SE2_assoc : forall X Y Z : M33 R,
  tr_SE2_mul Rops (tr_SE2_mul Rops X Y) Z = tr_SE2_mul Rops X (tr_SE2_mul Rops Y Z) /\
  tr_SE2_assoc_l Rops X Y Z = tr_SE2_assoc_r Rops X Y Z /\
  tr_SE2_assoc_l Rops X Y Z = tr_SE2_mul Rops (tr_SE2_mul Rops X Y) Z.
Proof. intros; repeat split; c02_ring. Qed.
Print Assumptions C02_SE2_assoc.

Theorem C02_SE2_identity : forall X : M33 R,
  tr_SE2_id_r Rops X = aff3 Rops X /\ tr_SE2_id_l Rops X = aff3 Rops X.
Proof. intros; split; c02_ring. Qed.
Print Assumptions C02_SE2_identity.

Theorem C02_SE2_inv_is_trinv2 : forall X : M33 R,
  tr_SE2_inv Rops X = trinv2_ref X /\ tr_trinv2 Rops X = trinv2_ref X.
Proof. intros; split; c02_ring. Qed.
Print Assumptions C02_SE2_inv_is_trinv2.

Theorem C02_SE2_inverse_defect : forall X : M33 R,
  let Rm := t2r2 X in let t := transl2 X in
  tr_SE2_x_xinv Rops X = rt2tr2 Rops (mmul22 Rops Rm (mtr22 Rm))
                           (vsub2 Rops t (mv22 Rops (mmul22 Rops Rm (mtr22 Rm)) t)) /\
  tr_SE2_xinv_x Rops X = rt2tr2 Rops (mmul22 Rops (mtr22 Rm) Rm) (0, 0) /\
  tr_SE2_mul Rops X (tr_SE2_inv Rops X) = tr_SE2_x_xinv Rops X /\
  tr_SE2_mul Rops (tr_SE2_inv Rops X) X = tr_SE2_xinv_x Rops X.
Proof. cbv zeta; intros; repeat split; c02_ring. Qed.
Print Assumptions C02_SE2_inverse_defect.

Theorem C02_SE2_inverse : forall X : M33 R, SE2 X ->
  tr_SE2_mul Rops X (tr_SE2_inv Rops X) = I33 Rops /\ tr_SE2_mul Rops (tr_SE2_inv Rops X) X = I33 Rops /\
  tr_SE2_x_xinv Rops X = I33 Rops /\ tr_SE2_xinv_x Rops X = I33 Rops.
Proof.
  intros X [H _]. pose proof (C02_SE2_inverse_defect X) as E. cbv zeta in E. destruct E as (E1 & E2 & E3 & E4).
  rewrite E3, E4, E1, E2, (SO2_inv_r _ H), (SO2_inv_l _ H). generalize (transl2 X). intros t.
  destruct_tuples. lin_simpl. repeat split; tuple_eq ltac:(ring).
Qed.
Print Assumptions C02_SE2_inverse.

(* trinv2(T) is the true two-sided matrix inverse of T in SE(2), and equals adjugate / determinant *)
Theorem C02_trinv2_is_matrix_inverse : forall X : M33 R, SE2 X ->
  mmul33 Rops X (tr_trinv2 Rops X) = I33 Rops /\ mmul33 Rops (tr_trinv2 Rops X) X = I33 Rops /\
  tr_trinv2 Rops X = minv_aff3 Rops X.
Proof.
  intros X H. destruct (C02_SE2_inv_is_trinv2 X) as [_ ->]. repeat split.
  - apply SE2_inv_r; exact H.
  - apply SE2_inv_l; exact H.
  - unfold minv_aff3. cbv zeta. rewrite (minv22_SO2 _ (proj1 H)). reflexivity.
Qed.
Print Assumptions C02_trinv2_is_matrix_inverse.

Theorem C02_SE2_inv_antihom_defect : forall X Y : M33 R,
  let R1 := t2r2 X in let R2 := t2r2 Y in let t2 := transl2 Y in
  t2r2 (tr_SE2_inv_of_mul Rops X Y) = t2r2 (tr_SE2_mul_of_inv Rops X Y) /\
  lastrow3 (tr_SE2_inv_of_mul Rops X Y) = lastrow3 (tr_SE2_mul_of_inv Rops X Y) /\
  vsub2 Rops (transl2 (tr_SE2_inv_of_mul Rops X Y)) (transl2 (tr_SE2_mul_of_inv Rops X Y)) =
    vsub2 Rops (mv22 Rops (mtr22 R2) t2) (mv22 Rops (mmul22 Rops (mtr22 R2) (mmul22 Rops (mtr22 R1) R1)) t2) /\
  tr_SE2_inv Rops (tr_SE2_mul Rops X Y) = tr_SE2_inv_of_mul Rops X Y /\
  tr_SE2_mul Rops (tr_SE2_inv Rops Y) (tr_SE2_inv Rops X) = tr_SE2_mul_of_inv Rops X Y.
Proof. cbv zeta; intros; repeat split; c02_ring. Qed.
Print Assumptions C02_SE2_inv_antihom_defect.

Lemma M33_blocks_eq : forall A B : M33 R, t2r2 A = t2r2 B -> lastrow3 A = lastrow3 B ->
  vsub2 Rops (transl2 A) (transl2 B) = (0, 0) -> A = B.
Proof.
  intros A B H1 H2 H3. destruct_tuples. lin_simpl. injection H1; injection H2; injection H3; intros; subst.
  tuple_eq ltac:(lra).
Qed.

(* (X*Y).inv() = Y.inv() * X.inv() for X in SE(2) and ANY affine Y *)
Theorem C02_SE2_inv_antihom : forall X Y : M33 R, SO2 (t2r2 X) ->
  tr_SE2_inv_of_mul Rops X Y = tr_SE2_mul_of_inv Rops X Y /\
  tr_SE2_inv Rops (tr_SE2_mul Rops X Y) = tr_SE2_mul Rops (tr_SE2_inv Rops Y) (tr_SE2_inv Rops X).
Proof.
  intros X Y H. pose proof (C02_SE2_inv_antihom_defect X Y) as E. cbv zeta in E. destruct E as (E1 & E2 & E3 & E4 & E5).
  assert (E : tr_SE2_inv_of_mul Rops X Y = tr_SE2_mul_of_inv Rops X Y).
  { apply M33_blocks_eq; try assumption. rewrite E3, (SO2_inv_l _ H).
    generalize (t2r2 Y) (transl2 Y). intros. destruct_tuples. lin_simpl. tuple_eq ltac:(ring). }
  split; [exact E|]. rewrite E4, E5. exact E.
Qed.
Print Assumptions C02_SE2_inv_antihom.

Theorem C02_SE2_div : forall X Y : M33 R, tr_SE2_div Rops X Y = tr_SE2_mul Rops X (tr_SE2_inv Rops Y).
Proof. c02_ring. Qed.
Print Assumptions C02_SE2_div.

Example C02_b_nonvacuous :
  SO2 ((3/5, -4/5), (4/5, 3/5)) /\ SE2 ((3/5, -4/5, 7), (4/5, 3/5, -2), (0, 0, 1)) /\
  tr_SE2_mul Rops ((3/5, -4/5, 7), (4/5, 3/5, -2), (0, 0, 1)) ((3/5, -4/5, 7), (4/5, 3/5, -2), (0, 0, 1)) <> I33 Rops.
Proof.
  split; [|split].
  - unfold SO2. repeat split; lra.
  - unfold SE2, SO2. lin_simpl. repeat split; try lra.
  - c02_unfold. intro H. injection H. intros. lra.
Qed.
