(* C13 (part 8) -- Ad(exp(theta [S])) solves the initial value problem that defines exp(theta ad(S)).
   tr_trexp_unit s th is the library's base.trexp(S, theta) executed on a symbolic unit twist and a symbolic theta
   (concolic; path condition pc_trexp_unit: S not zero, | |w| - 1 | < 10 eps, |w| >= 10 eps), tr_adjoint the
   library's base.adjoint, tr_Tw_ad the library's Twist3.ad -- all regenerated on every run.  The derivatives are
   proved once about the hand-written Rodrigues curve of theories/Model/C13_ode.v; here the regenerated traces are shown to BE that curve, for all S and theta.
   What this does and does not give: A(theta) = Ad(exp(theta [S])) satisfies A' = ad(S) A, A(0) = I, exactly the IVP
   whose unique solution is the power series exp(theta ad(S)).  Uniqueness for linear ODE systems is not available in
   the standard library or Coquelicot for matrix-valued functions, so the equality with the series is NOT claimed as a
   theorem; it stays measured by the oracle (mpmath / scipy expm). *)
From Coq Require Import Reals ZArith Lra.
From Coquelicot Require Import Coquelicot.
From SM Require Import Base.Ops Base.Lin Base.RInst Base.RLin Model.C13_ode.
From SMgen Require Import Traces_C13.
Open Scope R_scope.

(* the regenerated traces are the reference curve / the reference little adjoint, for every S and theta *)
Theorem C13_trexp_unit_is_rodrigues_curve : forall (s : V6 R) (th : R),
  tr_trexp_unit Rops s th = exp_curve s th /\
  tr_adjoint Rops (tr_trexp_unit Rops s th) = Ad_curve s th /\
  tr_Tw_ad Rops s = ad_ref s.
Proof.
  intros s th. destruct s as [[[[[v0 v1] v2] w0] w1] w2].
  unfold Ad_curve, Ad_ref, ad_ref, exp_curve, Rth, Vth, Model.C13_ode.tw_v, Model.C13_ode.tw_w.
  repeat split; autounfold with smgen smlin; sm_simpl; tuple_eq ltac:(ring).
Qed.
Print Assumptions C13_trexp_unit_is_rodrigues_curve.

(* THE THEOREM: for a unit twist, theta |-> Ad(trexp(S, theta)) is differentiable (every entry), its derivative is
   ad(S) times itself, and it starts at the identity *)
Theorem C13_Ad_exp_solves_ad_ode : forall (s : V6 R), normsq3 Rops (Model.C13_ode.tw_w s) = 1 ->
  (forall (th : R) (i j : nat), (i < 6)%nat -> (j < 6)%nat ->
     is_derive (fun t => get66 (tr_adjoint Rops (tr_trexp_unit Rops s t)) i j) th
               (get66 (mmul66 Rops (tr_Tw_ad Rops s) (tr_adjoint Rops (tr_trexp_unit Rops s th))) i j)) /\
  tr_adjoint Rops (tr_trexp_unit Rops s 0) = I66 Rops.
Proof.
  intros s Hw. split.
  - intros th i j Hi Hj.
    destruct (C13_trexp_unit_is_rodrigues_curve s th) as (_ & -> & ->).
    apply is_derive_ext with (f := fun t => get66 (Ad_curve s t) i j).
    + intro t. now destruct (C13_trexp_unit_is_rodrigues_curve s t) as (_ & -> & _).
    + apply Ad_curve_ode; assumption.
  - destruct (C13_trexp_unit_is_rodrigues_curve s 0) as (_ & -> & _). apply Ad_curve_0.
Qed.
Print Assumptions C13_Ad_exp_solves_ad_ode.

(* corollary: the first-order statement.  At theta = 0 the derivative is ad(S) itself, i.e.
   A(theta) = I + theta ad(S) + o(theta) entrywise (is_derive at 0 is exactly that little-o statement) *)
Theorem C13_Ad_exp_first_order : forall (s : V6 R), normsq3 Rops (Model.C13_ode.tw_w s) = 1 ->
  forall i j : nat, (i < 6)%nat -> (j < 6)%nat ->
  is_derive (fun t => get66 (tr_adjoint Rops (tr_trexp_unit Rops s t)) i j) 0 (get66 (tr_Tw_ad Rops s) i j) /\
  get66 (tr_adjoint Rops (tr_trexp_unit Rops s 0)) i j = get66 (I66 Rops) i j.
Proof.
  intros s Hw i j Hi Hj. destruct (C13_Ad_exp_solves_ad_ode s Hw) as [Hd H0]. split; [|now rewrite H0].
  specialize (Hd 0 i j Hi Hj). rewrite H0 in Hd.
  replace (mmul66 Rops (tr_Tw_ad Rops s) (I66 Rops)) with (tr_Tw_ad Rops s) in Hd; [exact Hd|].
  generalize (tr_Tw_ad Rops s). intro M. destruct_tuples. lin_simpl. tuple_eq ltac:(ring).
Qed.
Print Assumptions C13_Ad_exp_first_order.

(* non-vacuity: a unit twist that satisfies the hypothesis and the regenerated path condition, whose curve is not
   constant (entry (0,1) of A' at 0 is -w2 = -4/5) *)
Example C13_ode_nonvacuous :
  normsq3 Rops (Model.C13_ode.tw_w (1, 2, 3, 3/5, 0, 4/5)) = 1 /\
  pc_trexp_unit Rops (1, 2, 3, 3/5, 0, 4/5) 1 = true /\
  get66 (tr_Tw_ad Rops (1, 2, 3, 3/5, 0, 4/5)) 0 1 = - (4/5).
Proof.
  assert (E1 : sqrt 1 = 1) by apply sqrt_1.
  split; [unfold Model.C13_ode.tw_w; lin_simpl; field|]. split.
  - unfold pc_trexp_unit. lin_simpl. replace (3 / 5 * (3 / 5) + 0 * 0 + 4 / 5 * (4 / 5)) with 1 by field. rewrite E1.
    rewrite !Bool.andb_true_iff, !Bool.negb_true_iff. repeat split.
    + apply Rltb_false. intro H.
      assert (1 <= sqrt (1 * 1 + 2 * 2 + 3 * 3 + 3 / 5 * (3 / 5) + 0 * 0 + 4 / 5 * (4 / 5))) by (rewrite <- E1 at 1; apply sqrt_le_1_alt; lra). lra.
    + apply Rltb_true. replace (-1 + 1) with 0 by ring. rewrite Rabs_R0. lra.
    + apply Rltb_false. lra.
  - unfold get66, row6, el6. autounfold with smgen smlin. sm_simpl. field.
Qed.
