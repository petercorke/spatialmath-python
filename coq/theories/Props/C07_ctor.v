(* C07 -- what the constructors let into an object.  Model: theories/Model/C07_Ctor.v (hand-written, mirrors
   SMUserList.arghandler + the per-class constructor fall-through as they are; tied to /repo on every run by the
   exhaustive table run of props/C07.py: class x container form x shape x defect kind x position of the bad item).
   Kind B: lists and finite enumerations, no real numbers -- every theorem here is axiom-free.

   FULL statement of the property:

     forall c a d, wf c a = true -> ctor c a = Ok d -> all_valid d.

   i.e. whenever a constructor returns an object, every element of .data is (derived from) a member of the group.
   It holds of /repo since the fixes 8457767 (isR), f16dbda (list path), 21d6c6d (UnitQuaternion N x 4), c16e6a7 (transl2),
   for every class and every argument form, with no guard (C07_ctor_sound).
   UnitQuaternion(ndarray 4x4) is modelled explicitly: a 4x4 that passes ishom gives ONE quaternion (from its rotation
   block); any other 4x4 array is the documented N x 4 form with N = 4: four quaternion rows, normalised; an N x 4 array
   with a (near-)zero row is rejected with ValueError (C07_ctor_uq_4x4, C07_ctor_uq_stack). *)
From Coq Require Import List Bool Arith.
Import ListNotations.
From SM Require Import Model.C07_Ctor.

Definition all_valid (d : list slot) : Prop := Forall (fun x => valid_slot x = true) d.

Ltac nat7 n := destruct n as [|[|[|[|[|[|[|n]]]]]]].
Ltac shape_cases s :=
  let n := fresh "n" in let r := fresh "r" in let c := fresh "c" in
  destruct s as [n|n|r c|]; [nat7 n | nat7 n | nat7 r; nat7 c | ].

Lemma all_valid_repeat_made n : all_valid (repeat Made n).
Proof. induction n; simpl; constructor; auto. Qed.
Lemma not_all_valid_none d1 d2 : ~ all_valid (d1 ++ NoneElt :: d2).
Proof. intros H. apply Forall_app in H. destruct H as [_ H]. inversion H; subst. discriminate. Qed.

(* UnitQuaternion(N x 4 array), N = 4 included *)
Theorem C07_ctor_uq_4x4 :
  ctor cUQ (Bare (Arr (Sq 4) Valid)) = Ok [Conv (Arr (Sq 4) Valid)] /\
  (forall t, hom_ok t = false -> t <> ZeroRow -> ctor cUQ (Bare (Arr (Sq 4) t)) = Ok (repeat Made 4)) /\
  ctor cUQ (Bare (Arr (Sq 4) ZeroRow)) = Err ValueError.
Proof. repeat split. intros t H Hz. destruct t; try discriminate; try reflexivity. contradiction. Qed.
Print Assumptions C07_ctor_uq_4x4.
(* UnitQuaternion(ndarray of 4 numbers): stored if unit, otherwise normalised like the list form (fix d0fc1b2); the zero vector is rejected *)
Theorem C07_ctor_uq_vec4 :
  ctor cUQ (Bare (Arr (Vec 4) Valid)) = Ok [Elt (Arr (Vec 4) Valid)] /\
  ctor cUQ (Bare (Arr (Vec 4) AltForm)) = Ok [Made] /\ ctor cUQ (Bare (Arr (Vec 4) ZeroRow)) = Err ValueError.
Proof. repeat split. Qed.
Print Assumptions C07_ctor_uq_vec4.
Theorem C07_ctor_uq_stack : forall r t, r <> 4 ->
  ctor cUQ (Bare (Arr (Rect r 4) t)) = if tag_eqb t ZeroRow then Err ValueError else Ok (repeat Made r).
Proof. intros r t H. nat7 r; try reflexivity; contradiction. Qed.
Print Assumptions C07_ctor_uq_stack.

Inductive bare_outcome (c : cls) (it : item) : result (list slot) -> Prop :=
| bo_acc : accept c it = true -> bare_outcome c it (Ok [stored c it])
| bo_err : forall e, accept c it = false -> bare_outcome c it (Err e)
| bo_made : forall n, accept c it = false -> bare_outcome c it (Ok (repeat Made n))
| bo_conv : c = cUQ -> rot_ok (itag it) = true -> bare_outcome c it (Ok [Conv it]).
Lemma bare_outcome_spec : forall c it, bare_outcome c it (ctor c (Bare it)).
Proof.
  intros c [s t]. unfold ctor. destruct (accept c (Arr s t)) eqn:Ea; [apply bo_acc; exact Ea|].
  destruct c; cbn [is_twist]; try (apply bo_err; exact Ea).
  - (* SO2 *) cbn [fallthrough]. destruct (any_vec s); [apply bo_made | apply bo_err]; exact Ea.
  - (* SE2 *) shape_cases s; cbn; try (apply bo_err; exact Ea); try (apply (bo_made _ _ 1); exact Ea).
  - (* SE3 *) cbn [fallthrough]. destruct (is_vec s 3); [apply (bo_made _ _ 1); exact Ea|].
    shape_cases s; cbn -[repeat]; try (apply bo_err; exact Ea); try (apply bo_made; exact Ea).
  - (* UQ *) shape_cases s; cbn -[repeat]; try (apply bo_err; exact Ea);
      destruct t; cbn -[repeat]; try (apply bo_err; exact Ea); try (apply bo_made; exact Ea); try (apply bo_conv; reflexivity).
Qed.

Lemma accept_valid : forall c it, accept c it = true -> applicable c it = true -> valid_slot (stored c it) = true.
Proof.
  intros c [s t] Ha Hp. destruct c; cbn in *.
  1-5: destruct t; try discriminate; try reflexivity; rewrite ?andb_false_r in Ha; discriminate.
  - unfold stored. cbn [ish]. destruct (is_sq s 3); cbn; destruct (dims_eqb (dims s) [3]); destruct t; cbn in *; try discriminate; reflexivity.
  - unfold stored. cbn [ish]. destruct (is_sq s 4); cbn; destruct (dims_eqb (dims s) [6]); destruct t; cbn in *; try discriminate; reflexivity.
Qed.
Lemma all_valid_stored c l : Forall (fun it => accept c it = true /\ applicable c it = true) l -> all_valid (map (stored c) l).
Proof. induction 1 as [|it l [Ha Hp] _ IH]; simpl; constructor; auto. apply accept_valid; auto. Qed.

(* a non-empty list or tuple: every class stores the items in order if it accepts them all, and raises otherwise *)
Lemma ctor_seq_spec c l : l <> [] ->
  exists e, ctor c (Seq l) = if forallb (accept c) l then Ok (map (stored c) l) else Err e.
Proof.
  intros Hl. destruct l as [|h l]; [contradiction|]. unfold ctor. set (L := h :: l).
  destruct (is_twist c) eqn:Et; [eexists; reflexivity|]. destruct (is_pose c) eqn:Ep; [eexists; reflexivity|].
  destruct (forallb (accept c) L) eqn:Ha; [|destruct (negb _); eexists; reflexivity].
  (* UnitQuaternion looks at x.shape first; an accepted item is a 4-vector, hence an array *)
  assert (Hr : forallb (fun it => is_array (ish it)) L = true).
  { rewrite forallb_forall in *. intros [s t] Hx. specialize (Ha _ Hx). destruct c; try discriminate. destruct s; cbn in *; try reflexivity. discriminate. }
  rewrite Hr. now exists ValueError.
Qed.

(* lists and tuples: the FULL statement, every class, every length, no guard *)
Theorem C07_ctor_sound_seq : forall c l d, wf c (Seq l) = true -> ctor c (Seq l) = Ok d -> all_valid d.
Proof.
  intros c l d Hwf Hc. destruct l as [|h l]; [injection Hc as <-; constructor|].
  cbn [wf] in Hwf. apply andb_true_iff in Hwf. destruct Hwf as [_ Hp].
  destruct (ctor_seq_spec c (h :: l)) as [e E]; [discriminate|]. rewrite E in Hc.
  destruct (forallb (accept c) (h :: l)) eqn:Ha; [|discriminate].
  injection Hc as <-. apply (all_valid_stored c (h :: l)), Forall_forall. intros it Hin. rewrite forallb_forall in Ha, Hp. auto.
Qed.
Print Assumptions C07_ctor_sound_seq.
Example C07_ctor_sound_seq_nonvacuous :
  wf cSE3 (Seq [Arr (Sq 4) Valid; Arr (Sq 4) Valid]) = true /\ (exists d, ctor cSE3 (Seq [Arr (Sq 4) Valid; Arr (Sq 4) Valid]) = Ok d) /\
  wf cTw3 (Seq [Arr (Vec 6) Valid; Arr (Sq 4) Valid]) = true /\ (exists d, ctor cTw3 (Seq [Arr (Vec 6) Valid; Arr (Sq 4) Valid]) = Ok d).
Proof. repeat split; eexists; reflexivity. Qed.

(* THE FULL STATEMENT: every class, every argument form, no guard *)
Theorem C07_ctor_sound : forall c a d, wf c a = true -> ctor c a = Ok d -> all_valid d.
Proof.
  intros c a d Hwf Hc. destruct a as [it|l]; [|eapply C07_ctor_sound_seq; eassumption].
  pose proof (bare_outcome_spec c it) as B. rewrite Hc in B. cbn in Hwf. apply andb_true_iff in Hwf. destruct Hwf as [_ Hp].
  inversion B; subst.
  - constructor; [|constructor]. apply accept_valid; auto.
  - apply all_valid_repeat_made.
  - constructor; [|constructor]. cbn. destruct it as [s t]. cbn in *. destruct t; try discriminate; reflexivity.
Qed.
Print Assumptions C07_ctor_sound.
Example C07_ctor_sound_nonvacuous :
  wf cSE3 (Bare (Arr (Sq 4) Valid)) = true /\ (exists d, ctor cSE3 (Bare (Arr (Sq 4) Valid)) = Ok d) /\
  wf cUQ (Bare (Arr (Rect 3 4) AltForm)) = true /\ (exists d, ctor cUQ (Bare (Arr (Rect 3 4) AltForm)) = Ok d) /\
  wf cUQ (Bare (Arr (Sq 4) AltForm)) = true /\ (exists d, ctor cUQ (Bare (Arr (Sq 4) AltForm)) = Ok d) /\
  wf cUQ (Bare (Arr (Sq 4) Valid)) = true /\ (exists d, ctor cUQ (Bare (Arr (Sq 4) Valid)) = Ok d).
Proof. repeat split; eexists; reflexivity. Qed.

(* a rejected element at any position of any list / tuple makes every constructor raise (fix f16dbda for the pose classes) *)
Theorem C07_ctor_list_rejects : forall c l it, In it l -> accept c it = false -> exists e, ctor c (Seq l) = Err e.
Proof.
  intros c l it Hin Ha. destruct (ctor_seq_spec c l) as [e E]; [now intros ->|]. exists e. rewrite E.
  destruct (forallb (accept c) l) eqn:Hall; [|reflexivity].
  rewrite forallb_forall in Hall. rewrite (Hall _ Hin) in Ha. discriminate.
Qed.
Print Assumptions C07_ctor_list_rejects.
Example C07_ctor_list_rejects_nonvacuous :
  accept cSO3 (Arr (Sq 3) NotOrtho) = false /\ accept cSO3 (Arr (Sq 3) Reflect) = false /\ accept cSE3 (Arr (Sq 4) BadRow) = false /\
  accept cSO3 (Arr NonArray WrongShape) = false /\ accept cTw3 (Arr (Sq 4) NotAlgebra) = false /\ accept cUQ (Arr (Vec 4) AltForm) = false.
Proof. repeat split. Qed.
(* no constructor ever yields a None or a float element *)
Theorem C07_ctor_no_none : forall c a d, ctor c a = Ok d -> ~ In NoneElt d /\ ~ In NormFloat d.
Proof.
  assert (S : forall c l, ~ In NoneElt (map (stored c) l) /\ ~ In NormFloat (map (stored c) l)).
  { intros c l. split; intros H; apply in_map_iff in H; destruct H as [x [H _]]; unfold stored in H;
      destruct c; try discriminate; destruct (is_sq _ _); discriminate. }
  assert (Rp : forall x n, x <> NoneElt -> x <> NormFloat -> ~ In NoneElt (repeat x n) /\ ~ In NormFloat (repeat x n)).
  { intros x n H1 H2. split; intros H; apply repeat_spec in H; congruence. }
  intros c a d Hc. destruct a as [it|l].
  - pose proof (bare_outcome_spec c it) as B. rewrite Hc in B. inversion B; subst.
    + apply (S c [it]).
    + apply Rp; discriminate.
    + apply (Rp (Conv it) 1); discriminate.
  - destruct l as [|h l]; [injection Hc as <-; split; intros []|].
    destruct (ctor_seq_spec c (h :: l)) as [e E]; [discriminate|]. rewrite E in Hc.
    destruct (forallb _ _); [|discriminate]. injection Hc as <-. apply (S c (h :: l)).
Qed.
Print Assumptions C07_ctor_no_none.
(* bare arrays of the native shape that are reflections / not orthonormal / have a bad last row / are not of algebra form are rejected *)
Theorem C07_ctor_bare_rejects :
  (forall t, In t [NotOrtho; Reflect] -> exists e, ctor cSO2 (Bare (Arr (Sq 2) t)) = Err e) /\
  (forall t, In t [NotOrtho; Reflect] -> exists e, ctor cSO3 (Bare (Arr (Sq 3) t)) = Err e) /\
  (forall t, In t [NotOrtho; Reflect; BadRow] -> exists e, ctor cSE2 (Bare (Arr (Sq 3) t)) = Err e) /\
  (forall t, In t [NotOrtho; Reflect; BadRow] -> exists e, ctor cSE3 (Bare (Arr (Sq 4) t)) = Err e) /\
  (exists e, ctor cUQ (Bare (Arr (Vec 4) ZeroRow)) = Err e) /\
  (forall t, In t [NotOrtho; Reflect] -> exists e, ctor cUQ (Bare (Arr (Sq 3) t)) = Err e) /\
  (exists e, ctor cTw3 (Bare (Arr (Sq 4) NotAlgebra)) = Err e) /\ (exists e, ctor cTw2 (Bare (Arr (Sq 3) NotAlgebra)) = Err e) /\
  (forall k, exists e, ctor cSE2 (Bare (Arr (Rect 2 (S (S k))) WrongShape)) = Err e).
Proof.
  repeat split; try (eexists; reflexivity); try (intros t Ht; cbn in Ht; repeat destruct Ht as [<-|Ht]; try contradiction; eexists; reflexivity);
    try (intros k; destruct k as [|[|k]]; eexists; reflexivity).
Qed.
Print Assumptions C07_ctor_bare_rejects.
(* completeness: members are taken, bare or in a list of any length, in order *)
(* the empty list / tuple gives the empty object for every class (fix 1105ad0) *)
Theorem C07_ctor_empty : forall c, ctor c (Seq []) = Ok [].
Proof. reflexivity. Qed.
Print Assumptions C07_ctor_empty.
Theorem C07_ctor_accepts_members :
  accept cSO2 (Arr (Sq 2) Valid) = true /\ accept cSE2 (Arr (Sq 3) Valid) = true /\ accept cSO3 (Arr (Sq 3) Valid) = true /\
  accept cSE3 (Arr (Sq 4) Valid) = true /\ accept cUQ (Arr (Vec 4) Valid) = true /\ accept cTw3 (Arr (Vec 6) Valid) = true /\
  accept cTw3 (Arr (Sq 4) Valid) = true /\ accept cTw2 (Arr (Vec 3) Valid) = true /\ accept cTw2 (Arr (Sq 3) Valid) = true.
Proof. repeat split. Qed.
Print Assumptions C07_ctor_accepts_members.
Theorem C07_ctor_complete : forall c l, l <> [] -> forallb (accept c) l = true ->
  ctor c (Seq l) = Ok (map (stored c) l) /\ (forall it, accept c it = true -> ctor c (Bare it) = Ok [stored c it]).
Proof.
  intros c l Hl Ha. split.
  - destruct (ctor_seq_spec c l Hl) as [e E]. now rewrite E, Ha.
  - intros it H. unfold ctor. rewrite H. reflexivity.
Qed.
Print Assumptions C07_ctor_complete.
