(* C13 -- SE3.Delta.
   Since 03e6d35 in /repo, SE3.Delta(d) = SE3(trnorm(delta2tr(d))).  tr_Delta is the library's trnorm(delta2tr(d))
   executed on a symbolic d (concolic: unitvec compares three norms with its threshold -- `>= 10 eps` since 4dbd011; the comparisons are regenerated
   as pc_Delta and shown below to hold for EVERY d).  isR_model (theories/Model/C13_valid.v) is the validity test the
   constructor applies (tied numerically to SE3.isvalid); trnorm44_m is C14's hand model of trnorm, to which the
   trace is bridged for every d so that C14's projection lemma trnorm33_SO3 applies.
   Before that repair SE3.Delta handed the raw I + [d] to the constructor, which rejected it whenever
   sqrt(2)|w|^2 >= 100 eps (C13_delta2tr_valid_iff). *)
From Coq Require Import Reals ZArith Lra Bool.
From SM Require Import Base.Ops Base.Lin Base.RInst Base.RLin Model.C13_valid Model.C14_Norm Model.C14_NormProofs.
From SMgen Require Import Traces_C13.
Open Scope R_scope.

Definition tw_v (s : V6 R) : V3 R := let '(v0,v1,v2,_,_,_) := s in (v0,v1,v2).
Definition tw_w (s : V6 R) : V3 R := let '(_,_,_,w0,w1,w2) := s in (w0,w1,w2).

(* why the normalisation is needed: the raw first-order matrix is not a rotation *)
(* exact orthogonality defect and determinant of the rotation block of delta2tr(d), for every d *)
Theorem C13_delta2tr_orthogonality_defect : forall d : V6 R,
  let Rd := t2r3 (tr_delta2tr Rops d) in let n := normsq3 Rops (tw_w d) in
  frobsq33 Rops (orth_resid Rops Rd) = 2 * (n * n) /\ det33 Rops Rd = 1 + n /\
  det33 Rops (mmul33 Rops Rd (mtr33 Rd)) = (1 + n) * (1 + n).
Proof. intros d; cbv zeta. unfold frobsq33, orth_resid, tw_w. repeat split; gen_ring. Qed.
Print Assumptions C13_delta2tr_orthogonality_defect.

(* the validity test of the constructor would accept the raw delta2tr(d) exactly when sqrt(2) |w|^2 < tol eps  (tol = 100: |w| below about 1.25e-7) *)
Theorem C13_delta2tr_valid_iff : forall (tol : R) (d : V6 R),
  isR_model Rops tol (t2r3 (tr_delta2tr Rops d)) = true <-> sqrt 2 * normsq3 Rops (tw_w d) < tol * eps Rops.
Proof.
  intros tol d. destruct (C13_delta2tr_orthogonality_defect d) as (Hf & Hd & _). cbv zeta in *.
  pose proof (normsq3_nonneg (tw_w d)) as Hn. unfold isR_model. rewrite Hf, Hd.
  rewrite sqrt_mult_alt by lra. rewrite sqrt_square by exact Hn.
  rewrite andb_true_iff. change (ltb Rops) with Rltb. rewrite !Rltb_true.
  change (zero Rops) with 0. change (mul Rops tol (eps Rops)) with (tol * eps Rops).
  split; [tauto|]. intro H; split; [exact H|nra].
Qed.
Print Assumptions C13_delta2tr_valid_iff.

(* trnorm normalises three vectors of the rotation block I + skew(w): a = (w1,-w0,1), n = o x a and a x n, of lengths
   A, N and A N *)
Definition dA (w0 w1 : R) := sqrt (1 + w0*w0 + w1*w1).
Definition dN (w0 w1 w2 : R) := sqrt ((1 + w0*w0) * (1 + w0*w0 + w1*w1 + w2*w2)).

Lemma dA_ge_1 w0 w1 : 1 <= dA w0 w1.
Proof. apply sqrt_ge_1. nra. Qed.
Lemma dN_ge_1 w0 w1 w2 : 1 <= dN w0 w1 w2.
Proof. apply sqrt_ge_1. nra. Qed.
Lemma dA_sq w0 w1 : dA w0 w1 * dA w0 w1 = 1 + w0*w0 + w1*w1.
Proof. apply sqrt_sqrt. nra. Qed.
Lemma dN_sq w0 w1 w2 : dN w0 w1 w2 * dN w0 w1 w2 = (1 + w0*w0) * (1 + w0*w0 + w1*w1 + w2*w2).
Proof. apply sqrt_sqrt. nra. Qed.
Lemma dA_dN w0 w1 w2 : sqrt ((1 + w0*w0 + w1*w1) * ((1 + w0*w0) * (1 + w0*w0 + w1*w1 + w2*w2))) = dA w0 w1 * dN w0 w1 w2.
Proof. apply sqrt_mult_alt. nra. Qed.

(* every square root of a goal over w0 w1 w2 is one of A, N and A N:  the goal becomes
   1 <= A -> 1 <= N -> A * A = _ -> P = A * N -> _  with P the name given to the third *)
Ltac name_norms w0 w1 w2 :=
  generalize (dA_ge_1 w0 w1) (dN_ge_1 w0 w1 w2) (dA_sq w0 w1) (dA_dN w0 w1 w2); unfold dA, dN;
  set (A := sqrt (1 + w0*w0 + w1*w1)); set (N := sqrt ((1 + w0*w0) * (1 + w0*w0 + w1*w1 + w2*w2)));
  sqrt_unify.

Lemma Delta_norms : forall d : V6 R,
  let Rm := t2r3 (tr_delta2tr Rops d) in
  let o := col33 Rm 1 in let a := col33 Rm 2 in let n := cross3 Rops o a in let p := cross3 Rops a n in
  1 <= norm3 Rops n /\ 1 <= norm3 Rops p /\ 1 <= norm3 Rops a.
Proof.
  intros d. destruct d as [[[[[v0 v1] v2] w0] w1] w2]. cbv zeta. unfold norm3, col33. autounfold with smgen smlin. sm_simpl.
  name_norms w0 w1 w2. intros HA HN EA EP. rewrite ?EP. repeat split; nra.
Qed.

Theorem C13_Delta_is_trnorm : forall (thr : R) (d : V6 R), 0 <= thr <= 1 ->
  trnorm44_m Rops thr (tr_delta2tr Rops d) = Some (tr_Delta Rops d).
Proof.
  intros thr d Hthr. destruct (Delta_norms d) as (Hn & Hp & Ha).
  unfold trnorm44_m. rewrite trnorm33_defined by lra. clear Hn Hp Ha. f_equal.
  destruct d as [[[[[v0 v1] v2] w0] w1] w2].
  unfold norm3, col33, vdiv3. autounfold with smgen smlin. sm_simpl. name_norms w0 w1 w2. intros HA HN EA EP. rewrite ?EP.
  tuple_eq ltac:(try (field; lra)).
Qed.
Print Assumptions C13_Delta_is_trnorm.

Theorem C13_Delta_path_total : forall d : V6 R, pc_Delta Rops d = true.
Proof.
  intros d. destruct d as [[[[[v0 v1] v2] w0] w1] w2]. unfold pc_Delta, norm3, col33. autounfold with smgen smlin. sm_simpl.
  name_norms w0 w1 w2. intros HA HN EA EP. rewrite ?EP.
  (* the comparisons are `100 eps < norm` before 4dbd011 and `10 eps <= norm` after it: both follow from 1 <= norm *)
  rewrite !andb_true_iff. repeat split; first [apply Rltb_true | apply Rleb_true]; nra.
Qed.
Print Assumptions C13_Delta_path_total.

Theorem C13_Delta_in_SE3 : forall d : V6 R,
  SE3 (tr_Delta Rops d) /\ transl3 (tr_Delta Rops d) = tw_v d.
Proof.
  intros d. assert (Hthr : 0 <= 1/2 <= 1) by lra. pose proof (C13_Delta_is_trnorm (1/2) d Hthr) as H.
  unfold trnorm44_m in H. destruct (trnorm33_m Rops (1/2) (t2r3 (tr_delta2tr Rops d))) as [R'|] eqn:E; [|discriminate].
  apply trnorm33_SO3 in E; [|lra]. injection H as H. rewrite <- H. split.
  - apply SE3_rt. exact E.
  - destruct d as [[[[[v0 v1] v2] w0] w1] w2]. destruct_tuples. reflexivity.
Qed.
Print Assumptions C13_Delta_in_SE3.

Lemma SO3_passes_isR (tol : R) (Rm : M33 R) : 0 < tol -> SO3 Rm -> isR_model Rops tol Rm = true.
Proof.
  intros Ht H. apply SO3_matrix in H. destruct H as [Ho Hd]. unfold isR_model, orth_resid. rewrite Ho, Hd.
  rewrite andb_true_iff. change (ltb Rops) with Rltb. rewrite !Rltb_true. split.
  - unfold frobsq33. lin_simpl. match goal with |- sqrt ?a < _ => replace a with 0 by ring end.
    rewrite sqrt_0. assert (0 < / 4503599627370496) by (apply Rinv_0_lt_compat; lra). nra.
  - lin_simpl. lra.
Qed.

Theorem C13_Delta_accepted : forall d : V6 R, isR_model Rops (IZR isR_tol) (t2r3 (tr_Delta Rops d)) = true.
Proof. intros d. apply SO3_passes_isR; [unfold isR_tol; lra|]. exact (proj1 (proj1 (C13_Delta_in_SE3 d))). Qed.

(* closed form of tr2delta(SE3.Delta(d)): translation exactly v; rotational part in terms of
   A = |(w1,-w0,1)| = sqrt(1 + w0^2 + w1^2) and N = sqrt((1 + w0^2)(1 + |w|^2)) *)
Theorem C13_Delta_tr2delta_closed_form : forall d : V6 R,
  let '(v0,v1,v2,w0,w1,w2) := d in
  let A := sqrt (1 + w0*w0 + w1*w1) in let N := sqrt ((1 + w0*w0) * (1 + w0*w0 + w1*w1 + w2*w2)) in
  tr_tr2delta Rops (tr_Delta Rops d) =
  (v0, v1, v2,
   (w0 * (A / N) + w1 * w2 / (A * N) + w0 / A) / 2,
   (w1 / A + (w1 - w0 * w2) / N) / 2,
   ((w2 + w0 * w1) / N + w2 * (1 + w0*w0) / (A * N)) / 2).
Proof.
  intros d. destruct d as [[[[[v0 v1] v2] w0] w1] w2]. autounfold with smgen smlin. sm_simpl.
  name_norms w0 w1 w2. intros HA HN EA EP. rewrite ?EP.
  tuple_eq ltac:(try (field; lra)).
  all: field_simplify_eq; [|lra]; try (replace (A ^ 2) with (1 + w0*w0 + w1*w1) by (rewrite <- EA; ring)); ring.
Qed.
Print Assumptions C13_Delta_tr2delta_closed_form.

(* s = sqrt (1 + x) and its inverse, to first order in x *)
Lemma inv_sqrt1p (x s : R) : 0 <= x -> 1 <= s -> s * s = 1 + x -> 1 - x / 2 <= / s <= 1 /\ 0 < / s /\ s <= 1 + x / 2.
Proof.
  intros Hx Hs E. assert (Hs2 : s <= 1 + x / 2) by nra.
  assert (Hi : 0 < / s) by (apply Rinv_0_lt_compat; lra).
  assert (Hsi : s * / s = 1) by (apply Rinv_r; lra).
  repeat split; try assumption; nra.
Qed.
Lemma mul_near_1 (a n da dn : R) : 0 <= a -> 1 - da <= a <= 1 -> 1 - dn <= n <= 1 -> 1 - (da + dn) <= a * n <= 1.
Proof. intros Ha [Ha1 Ha2] [Hn1 Hn2]. pose proof (Rmult_le_pos (1 - a) (1 - n)). pose proof (Rmult_le_pos a (1 - n)). lra. Qed.
Lemma scale_ge_1 (u c : R) : 1 <= u -> 0 <= c <= 1 -> c <= u * c <= u.
Proof. intros Hu [Hc0 Hc1]. pose proof (Rmult_le_pos (u - 1) c). pose proof (Rmult_le_pos u (1 - c)). lra. Qed.

Lemma absmul (w c B : R) : Rabs w <= 1 -> Rabs c <= B -> Rabs (w * c) <= B.
Proof. intros Hw Hc. rewrite Rabs_mult. pose proof (Rabs_pos w). pose proof (Rabs_pos c). nra. Qed.
Lemma Rabs_half3 (x y z bx by_ bz : R) :
  Rabs x <= bx -> Rabs y <= by_ -> Rabs z <= bz -> Rabs (/2 * x + /2 * y + /2 * z) <= (bx + by_ + bz) / 2.
Proof. unfold Rabs. destruct (Rcase_abs x), (Rcase_abs y), (Rcase_abs z), (Rcase_abs (/2 * x + /2 * y + /2 * z)); lra. Qed.
Lemma prod_le_half_sq (x y z : R) : Rabs (x * y) <= (x*x + y*y + z*z) / 2.
Proof.
  pose proof (Rle_0_sqr (x - y)) as H1. pose proof (Rle_0_sqr (x + y)) as H2. pose proof (Rle_0_sqr z) as H3. unfold Rsqr in *.
  apply Rabs_le. split; lra.
Qed.
Lemma abs_le_1_of_sq (x q : R) : x * x <= q -> q <= 1 -> Rabs x <= 1.
Proof. intros. apply Rabs_le. split; nra. Qed.

(* With a = 1/A and n = 1/N, each component of the closed form minus w_i is half a sum of three products of a factor
   of modulus at most 1 with one of a - 1, n - 1, A n - 1, (1 + w0^2) a n - 1 (each O(q)) or w_i w_j (at most q/2). *)
Lemma Delta_bound (w0 w1 w2 A N : R) :
  let q := w0*w0 + w1*w1 + w2*w2 in
  q <= 1 -> 1 <= A -> 1 <= N -> A * A = 1 + w0*w0 + w1*w1 -> N * N = (1 + w0*w0) * (1 + q) ->
  Rabs ((w0 * (A / N) + w1 * w2 / (A * N) + w0 / A) / 2 - w0) <= 2 * q /\
  Rabs ((w1 / A + (w1 - w0 * w2) / N) / 2 - w1) <= 2 * q /\
  Rabs (((w2 + w0 * w1) / N + w2 * (1 + w0*w0) / (A * N)) / 2 - w2) <= 2 * q.
Proof.
  intros q Hq HA HN EA EN.
  assert (H0 : 0 <= w0*w0 <= q) by (unfold q; nra). assert (H1 : w1*w1 <= q) by (unfold q; nra).
  assert (H2 : w2*w2 <= q) by (unfold q; nra).
  assert (Hy : 0 <= N*N - 1 <= 3*q) by (rewrite EN; nra).
  destruct (inv_sqrt1p (w0*w0 + w1*w1) A) as ([Ha1 Ha2] & Ha0 & Ha3); [nra|lra|lra|].
  destruct (inv_sqrt1p (N*N - 1) N) as ([Hn1 Hn2] & Hn0 & _); [lra|lra|lra|].
  assert (Hx : w0*w0 + w1*w1 <= q) by (unfold q; nra).
  remember (/ A) as a eqn:Ea. remember (/ N) as n eqn:En.
  assert (Han : 1 - 2 * q <= a * n <= 1) by (pose proof (mul_near_1 a n (q/2) (3*q/2)); lra).
  assert (Han0 : 0 < a * n) by (apply Rmult_lt_0_compat; assumption).
  pose proof (scale_ge_1 A n) as HAn. pose proof (scale_ge_1 (1 + w0*w0) (a * n)) as Hz.
  assert (Ba : Rabs (a - 1) <= q / 2) by (apply Rabs_le; lra).
  assert (Bn : Rabs (n - 1) <= 3 * q / 2) by (apply Rabs_le; lra).
  assert (BAn : Rabs (A * n - 1) <= 3 * q / 2) by (apply Rabs_le; lra).
  assert (Bz : Rabs ((1 + w0*w0) * (a * n) - 1) <= 2 * q) by (apply Rabs_le; lra).
  assert (Bn1 : Rabs n <= 1) by (apply Rabs_le; lra).
  assert (Ban1 : Rabs (a * n) <= 1) by (apply Rabs_le; lra).
  assert (Bw0 : Rabs w0 <= 1) by (apply abs_le_1_of_sq with q; tauto).
  assert (Bw1 : Rabs w1 <= 1) by (apply abs_le_1_of_sq with q; assumption).
  assert (Bw2 : Rabs w2 <= 1) by (apply abs_le_1_of_sq with q; assumption).
  assert (B01 : Rabs (w0*w1) <= q / 2) by (unfold q; apply prod_le_half_sq).
  assert (B02 : Rabs (w0*w2) <= q / 2) by (unfold q; replace (w0*w0 + w1*w1 + w2*w2) with (w0*w0 + w2*w2 + w1*w1) by ring; apply prod_le_half_sq).
  assert (B12 : Rabs (w1*w2) <= q / 2) by (unfold q; replace (w0*w0 + w1*w1 + w2*w2) with (w1*w1 + w2*w2 + w0*w0) by ring; apply prod_le_half_sq).
  repeat split.
  - replace ((w0 * (A / N) + w1 * w2 / (A * N) + w0 / A) / 2 - w0)
      with (/2 * (w0 * (A * n - 1)) + /2 * ((a * n) * (w1*w2)) + /2 * (w0 * (a - 1))) by (rewrite Ea, En; field; lra).
    eapply Rle_trans; [apply Rabs_half3; apply absmul; eassumption|lra].
  - replace ((w1 / A + (w1 - w0 * w2) / N) / 2 - w1)
      with (/2 * (w1 * (a - 1)) + /2 * (w1 * (n - 1)) + /2 * (- n * (w0*w2))) by (rewrite Ea, En; field; lra).
    rewrite <- Rabs_Ropp in Bn1. eapply Rle_trans; [apply Rabs_half3; apply absmul; eassumption|lra].
  - replace (((w2 + w0 * w1) / N + w2 * (1 + w0*w0) / (A * N)) / 2 - w2)
      with (/2 * (w2 * (n - 1)) + /2 * (n * (w0*w1)) + /2 * (w2 * ((1 + w0*w0) * (a * n) - 1))) by (rewrite Ea, En; field; lra).
    eapply Rle_trans; [apply Rabs_half3; apply absmul; eassumption|lra].
Qed.

(* tr2delta(SE3.Delta(d)) - d: the translational part is exactly 0 and every rotational component is within
   2 |w|^2 of w  (for |w| <= 1; the property's domain is |d| <= 1e-2) *)
Theorem C13_Delta_second_order : forall d : V6 R, normsq3 Rops (tw_w d) <= 1 ->
  tw_v (tr_tr2delta Rops (tr_Delta Rops d)) = tw_v d /\
  (let '(e0,e1,e2) := tw_w (tr_tr2delta Rops (tr_Delta Rops d)) in let '(w0,w1,w2) := tw_w d in
   Rabs (e0 - w0) <= 2 * normsq3 Rops (tw_w d) /\ Rabs (e1 - w1) <= 2 * normsq3 Rops (tw_w d) /\
   Rabs (e2 - w2) <= 2 * normsq3 Rops (tw_w d)).
Proof.
  intros d Hq. pose proof (C13_Delta_tr2delta_closed_form d) as H.
  destruct d as [[[[[v0 v1] v2] w0] w1] w2]. cbv zeta in H. rewrite H. unfold tw_v, tw_w in *. split; [reflexivity|].
  revert Hq. lin_simpl. intro Hq.
  apply (Delta_bound w0 w1 w2); [exact Hq|apply dA_ge_1|apply dN_ge_1|apply dA_sq|etransitivity; [apply dN_sq|ring]].
Qed.
Print Assumptions C13_Delta_second_order.

(* non-vacuity / the normalisation is not the identity: for d = (1,2,3, 3/4, 0, 0) the normalised rotation differs
   from I + skew(w) (entry (1,1) is 4/5, not 1) while the raw matrix fails the validity test *)
Example C13_Delta_nonvacuous :
  normsq3 Rops (tw_w (1,2,3,3/4,0,0)) <= 1 /\ tr_Delta Rops (1,2,3,3/4,0,0) <> tr_delta2tr Rops (1,2,3,3/4,0,0) /\
  isR_model Rops (IZR isR_tol) (t2r3 (tr_delta2tr Rops (1,2,3,3/4,0,0))) = false.
Proof.
  split; [unfold tw_w; lin_simpl; lra|]. split.
  - intro H. pose proof (C13_Delta_in_SE3 (1,2,3,3/4,0,0)) as [[HS _] _]. rewrite H in HS.
    revert HS. autounfold with smgen smlin. unfold SO3. sm_simpl. intros HS. decompose [and] HS. lra.
  - apply not_true_is_false. rewrite C13_delta2tr_valid_iff. unfold tw_w. lin_simpl. unfold isR_tol.
    pose proof (sqrt_ge_1 2). nra.
Qed.
