(* C16 (f) -- the last two repaired behaviours: pose ** negative integer on symbolic values (fbf47d0) and symbolic
   SE3.Delta (2d89a18).  Same style as C16_a/b: value over R, structure by conversion over an abstract ops record. *)
From Coq Require Import Reals ZArith Lra List.
From SM Require Import Base.Ops Base.Lin Base.RInst Base.RLin Model.C16_struct Model.C16_ref Model.C16_open.
From SMgen Require Import Traces_C16.
Import ListNotations.
Open Scope R_scope.


(* negative integer powers (repaired by fbf47d0: positive power of the closed-form inverse) *)
Theorem C16_negpow_value : forall (X : M44 R) (Rm : M33 R) (E : M33 R) (A : M22 R),
  tr_SE3_powm1 Rops X = trinv_ref X /\ tr_SE3_powm2 Rops X = mmul44 Rops (trinv_ref X) (trinv_ref X) /\
  tr_SO3_powm1 Rops Rm = mtr33 Rm /\ tr_SE2_powm1 Rops E = trinv2_ref Rops E /\ tr_SO2_powm1 Rops A = mtr22 A.
Proof. intros; repeat split; ref_ring. Qed.
Print Assumptions C16_negpow_value.

(* X ** -1 IS X.inv(), syntactically, for the four classes; last row structural *)
Theorem C16_negpow_structural : forall (T : Type) (O : ops T) (X : M44 T) (Rm : M33 T) (E : M33 T) (A : M22 T),
  tr_SE3_powm1 O X = tr_SE3_inv O X /\ tr_SO3_powm1 O Rm = tr_SO3_inv O Rm /\ tr_SE2_powm1 O E = tr_SE2_inv O E /\
  tr_SO2_powm1 O A = tr_SO2_inv O A /\
  matches O (hom44 pat_any33 txxx) (fl44 (tr_SE3_powm1 O X)) /\ matches O (hom44 pat_any33 txxx) (fl44 (tr_SE3_powm2 O X)).
Proof. intros; destruct_tuples; repeat split; reflexivity. Qed.
Print Assumptions C16_negpow_structural.

Theorem C16_negpow_inverse_law : forall X : M44 R, SE3 X ->
  tr_SE3_mul Rops X (tr_SE3_powm1 Rops X) = I44 Rops /\ tr_SE3_mul Rops (tr_SE3_powm1 Rops X) X = I44 Rops.
Proof.
  intros X HX. assert (E : tr_SE3_powm1 Rops X = trinv_ref X) by ref_ring. rewrite E.
  assert (M : forall A B : M44 R, SE3 A -> SE3 B -> tr_SE3_mul Rops A B = mmul44 Rops A B).
  { intros A B HA HB. rewrite (SE3_decompose A HA), (SE3_decompose B HB). ref_ring. }
  rewrite !M by auto using SE3_inv. split; [apply SE3_inv_r | apply SE3_inv_l]; exact HX.
Qed.
Print Assumptions C16_negpow_inverse_law.
Example C16_negpow_nonvacuous : SE3 (rt2tr3 Rops (rotz_cs Rops 0 1) (1,2,3)).
Proof. apply SE3_rt. apply SO3_rotz. ring. Qed.

(* X ** -2 is (X ** -1) * (X ** -1) for every symbolic pose *)
Theorem C16_negpow_compose : forall X : M44 R,
  tr_SE3_powm2 Rops X = tr_SE3_mul Rops (tr_SE3_powm1 Rops X) (tr_SE3_powm1 Rops X).
Proof. ref_ring. Qed.
Print Assumptions C16_negpow_compose.

(* SE3.Delta (repaired by 2d89a18): trnorm of I + [d], for symbols the same closed form as for numbers *)
Theorem C16_SE3_Delta_value : forall d : V6 R, tr_SE3_Delta Rops d = trnorm_ref Rops (delta2tr_ref Rops d).
Proof. ref_unfold. unfold Rdiv. tuple_eq ltac:(sqrt_unify; ring). Qed.
Print Assumptions C16_SE3_Delta_value.

Theorem C16_SE3_Delta_structural : forall (T : Type) (O : ops T) (d : V6 T),
  matches O (hom44 pat_any33 txxx) (fl44 (tr_SE3_Delta O d)) /\
  transl3 (tr_SE3_Delta O d) = (let '(x,y,z,_,_,_) := d in (x,y,z)).
Proof. intros; destruct_tuples; repeat split; reflexivity. Qed.
Print Assumptions C16_SE3_Delta_structural.

(* a pure translation increment is the translation; the third column keeps the direction of (d4, -d3, 1) *)
Theorem C16_SE3_Delta_translation : forall x y z : R, tr_SE3_Delta Rops (x,y,z,0,0,0) = transl_ref Rops x y z.
Proof.
  ref_unfold.
  repeat match goal with |- context [sqrt ?a] => tryif constr_eq a 1 then fail else (replace a with 1 by ring) end.
  rewrite sqrt_1. tuple_eq ltac:(field).
Qed.
Print Assumptions C16_SE3_Delta_translation.

