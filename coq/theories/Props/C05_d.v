(* C05 (part d: UnitQuaternion constructors) -- the constructor side of the right-inverse law for the quaternion class.
   tr_UQ_RPY_arg_<order|alias> / tr_UQ_Eul_arg: the real UnitQuaternion.RPY / .Eul executed on symbols with base.r2q
   replaced by a recorder -- the trace is the ONE matrix the constructor hands to r2q, per order, alias, default and unit.
   r2q is the model Model/C04_R2q.v (r2q_100), for which q2r (r2q A) = A is proved for every rotation in
   Model/C04_R2qProofs.v; it is tied to base.r2q by the float correspondence of this check (m_r2q) on every run.
   tr_UQ_Rx/Ry/Rz(_deg), tr_UQ_AngVec: the quaternion the constructor returns, traced directly. *)
From Coq Require Import Reals Lra Psatz.
From SM Require Import Base.Ops Base.Lin Base.RInst Base.RLin Model.C05_Trig Model.C05_Angles Model.C05_Angvec
  Model.C05_Proofs Model.C04_R2q Model.C04_R2qProofs Model.C04_QuatRot.
From SMgen Require Import Consts_C05 Traces_C05.
Open Scope R_scope.

Definition deg2rad_f : R := 5030569068109113 / 288230376151711744.   (* the double math.pi/180 *)

(* the matrix handed to r2q is the documented ordered product, for EVERY order, alias, the default, and degrees *)
Theorem C05_UQ_RPY_argument_orders : forall r p y : R,
  tr_UQ_RPY_arg_zyx Rops r p y = mmul33 Rops (Rz Rops y) (mmul33 Rops (Ry Rops p) (Rx Rops r)) /\
  tr_UQ_RPY_arg_vehicle Rops r p y = mmul33 Rops (Rz Rops y) (mmul33 Rops (Ry Rops p) (Rx Rops r)) /\
  tr_UQ_RPY_arg_default Rops r p y = mmul33 Rops (Rz Rops y) (mmul33 Rops (Ry Rops p) (Rx Rops r)) /\
  tr_UQ_RPY_arg_xyz Rops r p y = mmul33 Rops (Rx Rops y) (mmul33 Rops (Ry Rops p) (Rz Rops r)) /\
  tr_UQ_RPY_arg_arm Rops r p y = mmul33 Rops (Rx Rops y) (mmul33 Rops (Ry Rops p) (Rz Rops r)) /\
  tr_UQ_RPY_arg_yxz Rops r p y = mmul33 Rops (Ry Rops y) (mmul33 Rops (Rx Rops p) (Rz Rops r)) /\
  tr_UQ_RPY_arg_camera Rops r p y = mmul33 Rops (Ry Rops y) (mmul33 Rops (Rx Rops p) (Rz Rops r)) /\
  tr_UQ_Eul_arg Rops r p y = mmul33 Rops (Rz Rops r) (mmul33 Rops (Ry Rops p) (Rz Rops y)).
Proof. intros. repeat split; c05_ring. Qed.
Print Assumptions C05_UQ_RPY_argument_orders.

Theorem C05_UQ_RPY_argument_deg : forall r p y : R,
  tr_UQ_RPY_arg_deg_zyx Rops r p y = tr_UQ_RPY_arg_zyx Rops (deg2rad_f*r) (deg2rad_f*p) (deg2rad_f*y) /\
  tr_UQ_RPY_arg_deg_xyz Rops r p y = tr_UQ_RPY_arg_xyz Rops (deg2rad_f*r) (deg2rad_f*p) (deg2rad_f*y) /\
  tr_UQ_RPY_arg_deg_yxz Rops r p y = tr_UQ_RPY_arg_yxz Rops (deg2rad_f*r) (deg2rad_f*p) (deg2rad_f*y) /\
  tr_UQ_Eul_arg_deg Rops r p y = tr_UQ_Eul_arg Rops (deg2rad_f*r) (deg2rad_f*p) (deg2rad_f*y).
Proof. intros. unfold deg2rad_f. repeat split; c05_ring. Qed.
Print Assumptions C05_UQ_RPY_argument_deg.

(* hence the quaternion built is a unit quaternion with non-negative scalar part whose rotation matrix IS the
   documented product: q2r (UnitQuaternion.RPY(order)) = Rz Ry Rx / Rx Ry Rz / Ry Rx Rz, Eul = Rz Ry Rz *)
Definition good_quat (q : V4 R) (A : M33 R) : Prop := q2r_ref Rops q = A /\ qnormsq Rops q = 1 /\ 0 <= fst (fst (fst q)).

Theorem C05_UQ_RPY_is_documented_product : forall r p y : R,
  good_quat (r2q_100 Rops (tr_UQ_RPY_arg_zyx Rops r p y)) (mmul33 Rops (Rz Rops y) (mmul33 Rops (Ry Rops p) (Rx Rops r))) /\
  good_quat (r2q_100 Rops (tr_UQ_RPY_arg_vehicle Rops r p y)) (mmul33 Rops (Rz Rops y) (mmul33 Rops (Ry Rops p) (Rx Rops r))) /\
  good_quat (r2q_100 Rops (tr_UQ_RPY_arg_default Rops r p y)) (mmul33 Rops (Rz Rops y) (mmul33 Rops (Ry Rops p) (Rx Rops r))) /\
  good_quat (r2q_100 Rops (tr_UQ_RPY_arg_xyz Rops r p y)) (mmul33 Rops (Rx Rops y) (mmul33 Rops (Ry Rops p) (Rz Rops r))) /\
  good_quat (r2q_100 Rops (tr_UQ_RPY_arg_arm Rops r p y)) (mmul33 Rops (Rx Rops y) (mmul33 Rops (Ry Rops p) (Rz Rops r))) /\
  good_quat (r2q_100 Rops (tr_UQ_RPY_arg_yxz Rops r p y)) (mmul33 Rops (Ry Rops y) (mmul33 Rops (Rx Rops p) (Rz Rops r))) /\
  good_quat (r2q_100 Rops (tr_UQ_RPY_arg_camera Rops r p y)) (mmul33 Rops (Ry Rops y) (mmul33 Rops (Rx Rops p) (Rz Rops r))) /\
  good_quat (r2q_100 Rops (tr_UQ_Eul_arg Rops r p y)) (mmul33 Rops (Rz Rops r) (mmul33 Rops (Ry Rops p) (Rz Rops y))).
Proof.
  intros. destruct (C05_UQ_RPY_argument_orders r p y) as (E1 & E2 & E3 & E4 & E5 & E6 & E7 & E8).
  rewrite E1, E2, E3, E4, E5, E6, E7, E8. unfold good_quat.
  repeat split; apply r2q_roundtrip; apply SO3_mul3; first [apply SO3_Rz | apply SO3_Ry | apply SO3_Rx].
Qed.
Print Assumptions C05_UQ_RPY_is_documented_product.

(* elementary rotations: half-angle quaternion, normalised by the constructor *)
Theorem C05_UQ_elementary : forall a : R,
  q2r_ref Rops (tr_UQ_Rx Rops a) = rotx_cs Rops (cos a) (sin a) /\
  q2r_ref Rops (tr_UQ_Ry Rops a) = roty_cs Rops (cos a) (sin a) /\
  q2r_ref Rops (tr_UQ_Rz Rops a) = rotz_cs Rops (cos a) (sin a).
Proof.
  intros a. destruct (half_cs a) as (C & S & U). rewrite C, S.
  autounfold with smgen. sm_simpl. apply half_angle_rot, U.
Qed.
Print Assumptions C05_UQ_elementary.

Theorem C05_UQ_elementary_deg : forall a : R,
  q2r_ref Rops (tr_UQ_Rx_deg Rops a) = rotx_cs Rops (cos (deg2rad_f*a)) (sin (deg2rad_f*a)) /\
  q2r_ref Rops (tr_UQ_Ry_deg Rops a) = roty_cs Rops (cos (deg2rad_f*a)) (sin (deg2rad_f*a)) /\
  q2r_ref Rops (tr_UQ_Rz_deg Rops a) = rotz_cs Rops (cos (deg2rad_f*a)) (sin (deg2rad_f*a)).
Proof.
  intros a. destruct (half_cs (deg2rad_f*a)) as (C & S & U). rewrite C, S.
  replace (1/2 * (deg2rad_f*a)) with (5030569068109113 / 576460752303423488 * a) in * by (unfold deg2rad_f; field).
  autounfold with smgen. sm_simpl. apply half_angle_rot, U.
Qed.
Print Assumptions C05_UQ_elementary_deg.

(* axis-angle constructor: rotation by theta about the NORMALISED axis *)
Theorem C05_UQ_AngVec_is_rodrigues : forall (th : R) (v : V3 R), 0 < normsq3 Rops v ->
  q2r_ref Rops (tr_UQ_AngVec Rops th v) = rodrigues_ref th (vscale3 Rops (/ norm3 Rops v) v) /\
  qnormsq Rops (tr_UQ_AngVec Rops th v) = 1.
Proof.
  (* the quaternion is (cos th/2, sin th/2 * u) with u = v/|v| a unit vector: q2r_axis_cs and the half-angle identities *)
  intros th v H. set (u := vscale3 Rops (/ norm3 Rops v) v).
  assert (Hu : normsq3 Rops u = 1).
  { replace (normsq3 Rops u) with (/ norm3 Rops v * / norm3 Rops v * normsq3 Rops v) by (unfold u; lin_ring).
    rewrite <- norm3_sq. field. pose proof (norm3_nonneg v). pose proof (norm3_sq v). nra. }
  assert (E : tr_UQ_AngVec Rops th v
              = (cos (1/2*th), sin (1/2*th) * fst (fst u), sin (1/2*th) * snd (fst u), sin (1/2*th) * snd u)).
  { unfold u. destruct v as [[v0 v1] v2]. autounfold with smgen smlin. sm_simpl. unfold Rdiv. tuple_eq ltac:(ring). }
  rewrite E. destruct (half_cs th) as (C & S & U). split.
  - rewrite q2r_axis_cs. unfold rodrigues_ref. rewrite C, S.
    replace (1 - (1 - 2 * (sin (1/2*th) * sin (1/2*th)))) with (2 * sin (1/2*th) * sin (1/2*th)) by ring. reflexivity.
  - destruct u as [[u0 u1] u2]. autounfold with smlin in *. sm_simpl.
    transitivity (cos (1/2*th) * cos (1/2*th) + sin (1/2*th) * sin (1/2*th) * (u0*u0 + u1*u1 + u2*u2)); [ring | rewrite Hu; lra].
Qed.
Print Assumptions C05_UQ_AngVec_is_rodrigues.
Example C05_UQ_AngVec_nonvacuous : 0 < normsq3 Rops (0, 0, 2).
Proof. autounfold with smlin. sm_simpl. lra. Qed.
