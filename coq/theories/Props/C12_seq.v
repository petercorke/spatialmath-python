(* C12, class layer on MULTI-VALUED operands: every class-level operation, applied to Quaternion objects
   holding N values, acts element by element and each element is the single-valued operation.
   Traces named tr_S4_xxx: N = 4, the operand is the list of the rows of an M44 (4 is the length at which an
   N-by-4 array can silently be taken for something else); traces named tr_S2_xxx: N = 2, the two halves of a V8.
   All traces are regenerated on every run by executing the class layer itself on symbols; the right-hand sides
   are the single-valued traces of the same run (tr_Q_xxx), shown in Props/C12.v to be the Hamilton algebra. *)
From Coq Require Import Reals ZArith.
From SM Require Import Base.Ops Base.Lin Base.RInst Base.RLin.
From SMgen Require Import Traces_C12.
Open Scope R_scope.

Ltac gen_sqrt := intros; destruct_tuples; autounfold with smgen smlin; sm_simpl; tuple_eq ltac:(try (f_equal; ring); try ring).

Definition r0 (P : M44 R) : V4 R := let '(a,_,_,_) := P in a.
Definition r1 (P : M44 R) : V4 R := let '(_,a,_,_) := P in a.
Definition r2 (P : M44 R) : V4 R := let '(_,_,a,_) := P in a.
Definition r3 (P : M44 R) : V4 R := let '(_,_,_,a) := P in a.
Definition lo (a : V8 R) : V4 R := let '(a0,a1,a2,a3,_,_,_,_) := a in (a0,a1,a2,a3).
Definition hi (a : V8 R) : V4 R := let '(_,_,_,_,a4,a5,a6,a7) := a in (a4,a5,a6,a7).
Definition cat (p q : V4 R) : V8 R := let '(a0,a1,a2,a3) := p in let '(a4,a5,a6,a7) := q in (a0,a1,a2,a3,a4,a5,a6,a7).
Ltac sel := unfold r0, r1, r2, r3, lo, hi, cat.

(* inner: N x N, N x 1, 1 x N give N Euclidean dot products *)
Theorem C12_seq_inner_NN : forall P S : M44 R,
  tr_S4_inner_NN Rops P S = (tr_Q_inner Rops (r0 P) (r0 S), tr_Q_inner Rops (r1 P) (r1 S),
                             tr_Q_inner Rops (r2 P) (r2 S), tr_Q_inner Rops (r3 P) (r3 S))
  /\ tr_S4_inner_NN Rops P S = (dot4 Rops (r0 P) (r0 S), dot4 Rops (r1 P) (r1 S), dot4 Rops (r2 P) (r2 S), dot4 Rops (r3 P) (r3 S)).
Proof. intros; split; sel; gen_ring. Qed.
Print Assumptions C12_seq_inner_NN.

Theorem C12_seq_inner_N1_1N : forall (P : M44 R) (q : V4 R),
  tr_S4_inner_N1 Rops P q = (dot4 Rops (r0 P) q, dot4 Rops (r1 P) q, dot4 Rops (r2 P) q, dot4 Rops (r3 P) q)
  /\ tr_S4_inner_1N Rops q P = (dot4 Rops q (r0 P), dot4 Rops q (r1 P), dot4 Rops q (r2 P), dot4 Rops q (r3 P)).
Proof. intros; split; sel; gen_ring. Qed.
Print Assumptions C12_seq_inner_N1_1N.

Theorem C12_seq2_inner : forall (a b : V8 R) (q : V4 R),
  tr_S2_inner_NN Rops a b = (dot4 Rops (lo a) (lo b), dot4 Rops (hi a) (hi b))
  /\ tr_S2_inner_1N Rops q a = (dot4 Rops q (lo a), dot4 Rops q (hi a)).
Proof. intros; split; sel; gen_ring. Qed.
Print Assumptions C12_seq2_inner.

Theorem C12_seq_mul : forall (P S : M44 R) (q : V4 R),
  tr_S4_mul_NN Rops P S = (tr_Q_mul Rops (r0 P) (r0 S), tr_Q_mul Rops (r1 P) (r1 S), tr_Q_mul Rops (r2 P) (r2 S), tr_Q_mul Rops (r3 P) (r3 S))
  /\ tr_S4_mul_N1 Rops P q = (tr_Q_mul Rops (r0 P) q, tr_Q_mul Rops (r1 P) q, tr_Q_mul Rops (r2 P) q, tr_Q_mul Rops (r3 P) q)
  /\ tr_S4_mul_1N Rops q P = (tr_Q_mul Rops q (r0 P), tr_Q_mul Rops q (r1 P), tr_Q_mul Rops q (r2 P), tr_Q_mul Rops q (r3 P)).
Proof. intros; repeat split; sel; gen_ring. Qed.
Print Assumptions C12_seq_mul.

Theorem C12_seq2_mul : forall (a b : V8 R) (q : V4 R),
  tr_S2_mul_NN Rops a b = cat (tr_Q_mul Rops (lo a) (lo b)) (tr_Q_mul Rops (hi a) (hi b))
  /\ tr_S2_mul_N1 Rops a q = cat (tr_Q_mul Rops (lo a) q) (tr_Q_mul Rops (hi a) q)
  /\ tr_S2_mul_1N Rops q a = cat (tr_Q_mul Rops q (lo a)) (tr_Q_mul Rops q (hi a)).
Proof. intros; repeat split; sel; gen_ring. Qed.
Print Assumptions C12_seq2_mul.

Theorem C12_seq_add_sub : forall (P S : M44 R) (q : V4 R),
  tr_S4_add_NN Rops P S = (tr_Q_add Rops (r0 P) (r0 S), tr_Q_add Rops (r1 P) (r1 S), tr_Q_add Rops (r2 P) (r2 S), tr_Q_add Rops (r3 P) (r3 S))
  /\ tr_S4_sub_NN Rops P S = (tr_Q_sub Rops (r0 P) (r0 S), tr_Q_sub Rops (r1 P) (r1 S), tr_Q_sub Rops (r2 P) (r2 S), tr_Q_sub Rops (r3 P) (r3 S))
  /\ tr_S4_add_N1 Rops P q = (tr_Q_add Rops (r0 P) q, tr_Q_add Rops (r1 P) q, tr_Q_add Rops (r2 P) q, tr_Q_add Rops (r3 P) q)
  /\ tr_S4_sub_1N Rops q P = (tr_Q_sub Rops q (r0 P), tr_Q_sub Rops q (r1 P), tr_Q_sub Rops q (r2 P), tr_Q_sub Rops q (r3 P)).
Proof. intros; repeat split; sel; gen_ring. Qed.
Print Assumptions C12_seq_add_sub.

Theorem C12_seq2_add_sub : forall a b : V8 R,
  tr_S2_add_NN Rops a b = cat (tr_Q_add Rops (lo a) (lo b)) (tr_Q_add Rops (hi a) (hi b))
  /\ tr_S2_sub_NN Rops a b = cat (tr_Q_sub Rops (lo a) (lo b)) (tr_Q_sub Rops (hi a) (hi b)).
Proof. intros; split; sel; gen_ring. Qed.
Print Assumptions C12_seq2_add_sub.

Theorem C12_seq_unary : forall (P : M44 R) (k : R),
  tr_S4_conj Rops P = (tr_Q_conj Rops (r0 P), tr_Q_conj Rops (r1 P), tr_Q_conj Rops (r2 P), tr_Q_conj Rops (r3 P))
  /\ tr_S4_norm Rops P = (tr_Q_norm Rops (r0 P), tr_Q_norm Rops (r1 P), tr_Q_norm Rops (r2 P), tr_Q_norm Rops (r3 P))
  /\ tr_S4_pow2 Rops P = (tr_qpow_p2 Rops (r0 P), tr_qpow_p2 Rops (r1 P), tr_qpow_p2 Rops (r2 P), tr_qpow_p2 Rops (r3 P))
  /\ tr_S4_smul Rops k P = (tr_Q_smul Rops k (r0 P), tr_Q_smul Rops k (r1 P), tr_Q_smul Rops k (r2 P), tr_Q_smul Rops k (r3 P)).
Proof. intros; repeat split; sel; gen_sqrt. Qed.
Print Assumptions C12_seq_unary.

Theorem C12_seq2_unary : forall a : V8 R,
  tr_S2_conj Rops a = cat (tr_Q_conj Rops (lo a)) (tr_Q_conj Rops (hi a))
  /\ tr_S2_norm Rops a = (tr_Q_norm Rops (lo a), tr_Q_norm Rops (hi a)).
Proof. intros; split; sel; gen_sqrt. Qed.
Print Assumptions C12_seq2_unary.
