(* C13 -- Ad(exp S) per twist kind, on the library's own base.trexp.
   tr_trexp6_pris v  = base.trexp([v, 0, 0, 0]) on a symbolic v (prismatic path: rotational part literally zero),
   tr_trexp6_zero s  = base.trexp(s) along the path "norm(s) < 10 eps" (the zero twist),
   tr_trexp6         = the general path (C13_log.v); each with its regenerated path condition.
   For a PRISMATIC twist the theorem below states ad(S) ad(S) = 0 and Ad(exp S) = I + ad(S).  With ad(S) nilpotent the
   series for exp(ad S) stops after these two terms, so this amounts to exp(ad S) = Ad(exp S) for that kind; the series
   itself is not defined here and that last step is not a Coq statement.  The class-level entry points (Twist3.Ad, Twist3.exp, SE3.Exp(..).Ad) are tied to these
   statements for every kind by the oracle of props/C13.py (they pass through checked constructors and are not
   traceable). *)
From Coq Require Import Reals ZArith Lra Bool.
From SM Require Import Base.Ops Base.Lin Base.RInst Base.RLin.
From SMgen Require Import Traces_C13.
Open Scope R_scope.

Definition madd66 (A B : M66 R) : M66 R :=
  let '(a0,a1,a2,a3,a4,a5) := A in let '(b0,b1,b2,b3,b4,b5) := B in
  let s (a b : V6 R) := let '(x0,x1,x2,x3,x4,x5) := a in let '(y0,y1,y2,y3,y4,y5) := b in (x0+y0,x1+y1,x2+y2,x3+y3,x4+y4,x5+y5) in
  (s a0 b0, s a1 b1, s a2 b2, s a3 b3, s a4 b4, s a5 b5).
Definition Z66 : M66 R := block66 (Z33 Rops) (Z33 Rops) (Z33 Rops) (Z33 Rops).
Definition pris (v : V3 R) : V6 R := let '(v0,v1,v2) := v in (v0,v1,v2,0,0,0).
#[local] Hint Unfold madd66 Z66 pris : smlin.

(* the exponential of a prismatic twist is the pure translation by v *)
Theorem C13_exp_prismatic : forall v : V3 R,
  tr_trexp6_pris Rops v = rt2tr3 Rops (I33 Rops) v /\ SE3 (tr_trexp6_pris Rops v).
Proof.
  intros v. assert (E : tr_trexp6_pris Rops v = rt2tr3 Rops (I33 Rops) v) by gen_ring.
  split; [exact E|]. rewrite E. apply SE3_rt. apply SO3_I.
Qed.
Print Assumptions C13_exp_prismatic.

(* ad(S) is nilpotent for a prismatic twist, and Ad(exp S) = I + ad(S): the coupling block skew(v) sits in
   the UPPER-RIGHT block (rows of the translational velocity, columns of the angular velocity) *)
Theorem C13_Ad_exp_prismatic : forall v : V3 R,
  mmul66 Rops (tr_Tw_ad Rops (pris v)) (tr_Tw_ad Rops (pris v)) = Z66 /\
  tr_adjoint Rops (tr_trexp6_pris Rops v) = madd66 (I66 Rops) (tr_Tw_ad Rops (pris v)) /\
  tr_adjoint Rops (tr_trexp6_pris Rops v) = block66 (I33 Rops) (skew3 Rops v) (Z33 Rops) (I33 Rops).
Proof. intros; repeat split; gen_ring. Qed.
Print Assumptions C13_Ad_exp_prismatic.

(* the traced prismatic path is taken exactly when v is not (numerically) zero; nothing else is decided on it *)
Example C13_prismatic_nonvacuous : pc_trexp6_pris Rops (3, 0, 4) = true /\
  tr_adjoint Rops (tr_trexp6_pris Rops (3, 0, 4)) <> I66 Rops.
Proof.
  split.
  - unfold pc_trexp6_pris. lin_simpl. rewrite negb_true_iff. apply Rltb_false.
    replace (3 * 3 + 0 * 0 + 4 * 4) with (5 * 5) by ring. rewrite sqrt_square by lra. lra.
  - autounfold with smgen smlin. sm_simpl. intro H. injection H; intros; lra.
Qed.

(* zero twist: exp = I, Ad = I, ad(0) = 0 *)
Theorem C13_Ad_exp_zero : forall s : V6 R,
  tr_trexp6_zero Rops s = I44 Rops /\ tr_adjoint Rops (tr_trexp6_zero Rops s) = I66 Rops /\
  tr_Tw_ad Rops (0,0,0,0,0,0) = Z66.
Proof. intros; repeat split; gen_ring. Qed.
Print Assumptions C13_Ad_exp_zero.

Example C13_zero_nonvacuous : pc_trexp6_zero Rops (0,0,0,0,0,0) = true.
Proof.
  unfold pc_trexp6_zero. lin_simpl. apply Rltb_true.
  replace (0 * 0 + 0 * 0 + 0 * 0 + 0 * 0 + 0 * 0 + 0 * 0) with 0 by ring. rewrite sqrt_0. lra.
Qed.

(* the general path never coincides with the prismatic one: there the rotation magnitude is at least 10 eps *)
Theorem C13_general_path_is_rotational : forall s : V6 R, pc_trexp6 Rops s = true ->
  let '(_,_,_,w0,w1,w2) := s in (w0, w1, w2) <> (0, 0, 0).
Proof.
  intros s. destruct s as [[[[[v0 v1] v2] w0] w1] w2]. unfold pc_trexp6. lin_simpl.
  rewrite !andb_true_iff, !negb_true_iff. intros [[_ H] _] E. apply Rltb_false in H. injection E; intros; subst.
  apply H. match goal with |- sqrt ?a < _ => replace a with 0 by ring end. rewrite sqrt_0. lra.
Qed.
Print Assumptions C13_general_path_is_rotational.
