(* C08 -- array-LIKE vector operands: a plain Python list or tuple of 2, 3 or 4 numbers on either side of every public
   class, all 10 operators, single- and 3-valued objects: [seq_cells], 3840 cells (bound in every statement).
   "pose * vector" is a documented form whose vector "is an array-like, a 1D NumPy array or a list/tuple"; the REVERSED
   order and every other pairing of a list / tuple with a library object under an arithmetic operator must raise.

   FULL-STRENGTH STATEMENT, proved without any guard (C08_seq_table):
       forall c, In c seq_cells -> conforms (spec_of H c) (model H c) = true
   (The library did not satisfy it in 8 cells before 1dd7b75: a list / tuple of 4 numbers times a Quaternion or UnitQuaternion
   returned a Quaternion, because Quaternion.__rmul__ did not test its left operand; see C08_sequence_times_quaternion_raises.) *)
From Coq Require Import List Bool Arith NArith.
Import ListNotations.
From SM Require Import Model.C08_Ops.
From SMgen Require Import Hierarchy_C08.

Theorem C08_seq_domain_size : N.of_nat (length seq_cells) = 3840%N.
Proof. vm_compute. reflexivity. Qed.
Print Assumptions C08_seq_domain_size.

Theorem C08_seq_table : forall c, In c seq_cells -> cell_ok H c = true /\ is_computed_or_raise (model H c) = true.
Proof.
  intros c Hin.
  apply (table_forall (fun c => let o := model H c in conforms (spec_of H c) o && is_computed_or_raise o)) in Hin.
  - now apply andb_true_iff in Hin.
  - vm_compute. reflexivity.
Qed.
Print Assumptions C08_seq_table.

Theorem C08_seq_model_total : forall c, In c seq_cells -> model H c <> Unmodelled.
Proof. intros c Hin. now apply computed_or_raise_modelled, C08_seq_table. Qed.
Print Assumptions C08_seq_model_total.

(* what the table contains: 24 documented cells (pose / UnitQuaternion / UnitDualQuaternion times a vector of the right length), all
   returning an array; 2280 cells that must raise; 1536 unconstrained comparisons *)
Example C08_seq_table_census :
  map (fun p => length (filter p seq_cells))
      [ (fun c => match spec_of H c with May _ => outcome_beq (model H c) (Value RArray Computed) | _ => false end);
        (fun c => match spec_of H c with MustRaise => outcome_beq (model H c) Raise | _ => false end);
        (fun c => match spec_of H c with Free => true | _ => false end);
        (fun c => match spec_of H c with Must _ => true | _ => false end) ]
  = [24; 2280; 1536; 0].
Proof. vm_compute. reflexivity. Qed.

(* (the defect repaired by 1dd7b75)  a list or tuple of ANY number of numbers times a
   Quaternion / UnitQuaternion raises, for every length of the quaternion object: scalar * quaternion accepts scalars only *)
Theorem C08_sequence_times_quaternion_raises : forall (n m : nat) (tup : bool) (X : cls), In X [Quaternion; UnitQuaternion] ->
  binop H n Mul (KSeq tup m) (Obj X) = Raise.
Proof. intros n m tup X HX. simpl in HX. destruct HX as [<- | [<- | []]]; vm_compute; reflexivity. Qed.
Print Assumptions C08_sequence_times_quaternion_raises.

Definition both_lengths (P : nat -> bool) : bool := forallb P lengths.
Definition poses : list cls := [SO2; SE2; SO3; SE3].

(* pose * vector is documented, vector * pose is not: a list or tuple on the LEFT of a pose raises under every arithmetic operator,
   whatever its length, for single- and multi-valued poses (SMPose.__rmul__ accepts scalars only) *)
Theorem C08_vector_times_pose_raises :
  forallb (fun X => forallb (fun v => forallb (fun o => both_lengths (fun n => outcome_beq (binop H n o v (Obj X)) Raise))
                                              [Mul; Div; Add; Sub; Pow; MatMul]) seq_kinds) poses = true.
Proof. vm_compute. reflexivity. Qed.
Print Assumptions C08_vector_times_pose_raises.

(* ... and the documented order returns the transformed point(s) exactly for a vector of the pose's dimension *)
Theorem C08_pose_times_vector :
  forallb (fun X => forallb (fun tup => both_lengths (fun n =>
     forallb (fun m => outcome_beq (binop H n Mul (Obj X) (KSeq tup m))
                                   (if m =? poseN H X then Value RArray Computed else Raise)) [2; 3; 4])) [false; true]) poses = true /\
  forallb (fun X => forallb (fun tup => both_lengths (fun n =>
     forallb (fun m => outcome_beq (binop H n Mul (Obj X) (KSeq tup m))
                                   (if m =? 3 then Value RArray Computed else Raise)) [2; 3; 4])) [false; true])
          [UnitQuaternion; UnitDualQuaternion] = true.
Proof. vm_compute. split; reflexivity. Qed.
Print Assumptions C08_pose_times_vector.

(* for EVERY length n: the reflected product of a pose declines anything that is not a scalar *)
Theorem C08_pose_rmul_scalars_only : forall (n : nat) (X : cls) (v : kind), In X poses -> is_scalar v = false ->
  forall rec, body H n rec (B SMPose) (Rev Mul) X v = NotImpl.
Proof. intros n X v _ Hv rec. unfold body. rewrite Hv. reflexivity. Qed.
Print Assumptions C08_pose_rmul_scalars_only.
Example C08_pose_rmul_scalars_only_nonvacuous :
  is_scalar (KSeq false 3) = false /\ owner H SE3 (Rev Mul) = Some (B SMPose) /\ In SE3 poses.
Proof. vm_compute. repeat split; tauto. Qed.
