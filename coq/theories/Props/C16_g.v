(* C16 (g) -- norms and unit vectors of structurally DEGENERATE symbolic vectors (a single symbolic component with literal
   zeros, 1- and 2-vectors, a repeated symbol, a monomial).  The symbolic result must be the square root of the sum of
   squares for EVERY sign of the symbols: sqrt(x^2) is |x|, never x.  A symbolic simplification that drops the absolute
   value agrees with the numeric path only for x >= 0 and breaks these theorems. *)
From Coq Require Import Reals ZArith Lra List.
From SM Require Import Base.Ops Base.Lin Base.RInst Base.RLin Model.C16_struct Model.C16_ref Model.C16_open.
From SMgen Require Import Traces_C16.
Import ListNotations.
Open Scope R_scope.


(* the general statement: the trace is sqrt of the sum of squares; and the Rabs form of the one-component cases *)
Theorem C16_norm_degenerate : forall x y : R,
  tr_norm3_x00 Rops x = norm3 Rops (x,0,0) /\ tr_norm3_x00 Rops x = Rabs x /\
  tr_norm1 Rops x = sqrt (x * x) /\ tr_norm1 Rops x = Rabs x /\
  tr_norm2 Rops x y = sqrt (x * x + y * y) /\
  tr_norm3_xxx Rops x = norm3 Rops (x,x,x) /\
  tr_norm3_mono Rops x y = norm3 Rops (x * y, y, 0) /\
  tr_normsq3_x00 Rops x = normsq3 Rops (x,0,0).
Proof.
  intros x y.
  assert (A1 : tr_norm3_x00 Rops x = Rabs x) by (ref_unfold; reflexivity).
  assert (A2 : tr_norm1 Rops x = Rabs x) by (ref_unfold; reflexivity).
  split; [|split; [|split; [|split; [|split; [|split; [|split]]]]]].
  - rewrite A1. ref_unfold. replace (x * x + 0 * 0 + 0 * 0) with (x * x) by ring. symmetry; apply sqrt_sq_abs.
  - exact A1.
  - rewrite A2. symmetry; apply sqrt_sq_abs.
  - exact A2.
  - ref_unfold. f_equal; ring.
  - ref_unfold. replace (x * x + x * x + x * x) with (3 * (x * x)) by ring.
    rewrite sqrt_mult_alt by lra. rewrite sqrt_sq_abs. reflexivity.
  - ref_unfold. f_equal; ring.
  - ref_unfold. ring.
Qed.
Print Assumptions C16_norm_degenerate.

(* the sign content, stated outright: for a NEGATIVE component the norm is -x (> 0) *)
Theorem C16_norm_negative : forall x : R, x < 0 ->
  tr_norm3_x00 Rops x = - x /\ tr_norm1 Rops x = - x /\ 0 < tr_norm3_x00 Rops x.
Proof.
  intros x Hx. destruct (C16_norm_degenerate x 0) as (_ & -> & _ & -> & _).
  rewrite Rabs_left by exact Hx. repeat split; lra.
Qed.
Print Assumptions C16_norm_negative.
Example C16_norm_negative_nonvacuous : (-2 : R) < 0. Proof. lra. Qed.

(* unit vectors: v / |v| in general; (x/|x|, 0, 0) for a single component: it is (-1,0,0) for x < 0 *)
Theorem C16_unitvec_value : forall (v : V3 R) (x : R),
  tr_unitvec3 Rops v = vscale3 Rops (/ norm3 Rops v) v /\
  tr_unitvec3_x00 Rops x = (x / Rabs x, 0, 0) /\ tr_unitvec1 Rops x = x / Rabs x.
Proof. intros; repeat split; ref_unfold; unfold Rdiv; tuple_eq ltac:(ring). Qed.
Print Assumptions C16_unitvec_value.

Theorem C16_unitvec_sign : forall x : R,
  (x < 0 -> tr_unitvec3_x00 Rops x = (-1, 0, 0) /\ tr_unitvec1 Rops x = -1) /\
  (0 < x -> tr_unitvec3_x00 Rops x = (1, 0, 0) /\ tr_unitvec1 Rops x = 1).
Proof.
  intros x. destruct (C16_unitvec_value (0,0,0) x) as (_ & -> & ->). split; intros Hx.
  - rewrite Rabs_left by exact Hx. split; [apply f_equal2; [apply f_equal2|]; trivial|]; field; lra.
  - rewrite Rabs_right by lra. split; [apply f_equal2; [apply f_equal2|]; trivial|]; field; lra.
Qed.
Print Assumptions C16_unitvec_sign.

Theorem C16_unitvec_structural : forall (T : Type) (O : ops T) (x : T),
  matches O [Px;P0;P0] (fl3 (tr_unitvec3_x00 O x)).
Proof. intros; repeat split; reflexivity. Qed.
Print Assumptions C16_unitvec_structural.
