(* C09 -- Sequence broadcasting: element-wise results and strict length rules.

   Theorems about the hand-written model SM.Model.C09_Broadcast (binop, op2, unop, the accessor shapes,
   pose_interp), for ANY lengths (0 included), ANY element types and ANY element operation.  The model is tied to
   /repo on every run by props/C09.py (exhaustive correspondence of the real helpers for all lengths 0..6, and the
   exhaustive class x operator x (m, n) grid on the real operators).
   No Reals; every theorem is closed under the global context (Print Assumptions). *)
From Coq Require Import List Arith Bool Lia.
From SM Require Import Model.C09_Broadcast.
Import ListNotations.

Ltac split_list l := let a := fresh "a" in let a' := fresh "a" in destruct l as [|a [|a' l]].

Theorem C09_binop_1x1 : forall A B C (op : A -> B -> C) list1 a b,
  binop op list1 [a] (Seq [b]) = Ok (if list1 then PList [op a b] else Bare (op a b)).
Proof. reflexivity. Qed.
Print Assumptions C09_binop_1x1.

Theorem C09_binop_1xM : forall A B C (op : A -> B -> C) list1 a r, length r <> 1 ->
  binop op list1 [a] (Seq r) = Ok (PList (map (fun x => op a x) r)).
Proof. intros. split_list r; simpl in *; try reflexivity. lia. Qed.
Print Assumptions C09_binop_1xM.
Example C09_binop_1xM_ex : binop (@pair nat nat) true [7] (Seq [10; 11; 12]) = Ok (PList [(7, 10); (7, 11); (7, 12)]).
Proof. reflexivity. Qed.

Theorem C09_binop_Mx1 : forall A B C (op : A -> B -> C) list1 l b, length l <> 1 ->
  binop op list1 l (Seq [b]) = Ok (PList (map (fun x => op x b) l)).
Proof. intros. split_list l; simpl in *; try reflexivity. lia. Qed.
Print Assumptions C09_binop_Mx1.
Example C09_binop_Mx1_ex : binop (@pair nat nat) false [1; 2; 3] (Seq [10]) = Ok (PList [(1, 10); (2, 10); (3, 10)]).
Proof. reflexivity. Qed.

Theorem C09_binop_MxM : forall A B C (op : A -> B -> C) list1 l r,
  length l <> 1 -> length l = length r ->
  binop op list1 l (Seq r) = Ok (PList (zip_with op l r)).
Proof.
  intros A B C op list1 l r H1 H. unfold binop.
  split_list l; split_list r; simpl in *; try lia; try reflexivity.
  assert (E : length l = length r) by lia. rewrite E, Nat.eqb_refl. reflexivity.
Qed.
Print Assumptions C09_binop_MxM.
Example C09_binop_MxM_ex : binop (@pair nat nat) true [1; 2; 3] (Seq [10; 11; 12]) = Ok (PList [(1, 10); (2, 11); (3, 12)]).
Proof. reflexivity. Qed.

Theorem C09_binop_scalar : forall A B C (op : A -> B -> C) list1 l s,
  binop op list1 l (Scalar s) =
  Ok (match l with [a] => if list1 then PList [op a s] else Bare (op a s) | _ => PList (map (fun x => op x s) l) end).
Proof. intros. split_list l; reflexivity. Qed.
Print Assumptions C09_binop_scalar.

(* two different lengths, neither of them 1 (in particular both greater than 1) -> ValueError *)
Theorem C09_binop_mismatch : forall A B C (op : A -> B -> C) list1 l r,
  length l <> 1 -> length r <> 1 -> length l <> length r ->
  binop op list1 l (Seq r) = Err ValueError.
Proof.
  intros A B C op list1 l r H1 H2 H. unfold binop.
  split_list l; split_list r; simpl in *; try lia; try reflexivity.
  destruct (length l =? length r) eqn:E; [apply Nat.eqb_eq in E; lia | reflexivity].
Qed.
Print Assumptions C09_binop_mismatch.

Corollary C09_binop_mismatch_gt1 : forall A B C (op : A -> B -> C) list1 l r,
  1 < length l -> 1 < length r -> length l <> length r -> binop op list1 l (Seq r) = Err ValueError.
Proof. intros. apply C09_binop_mismatch; lia. Qed.
Print Assumptions C09_binop_mismatch_gt1.
Example C09_binop_mismatch_ex : binop (@pair nat nat) true [1; 2] (Seq [10; 11; 12]) = Err ValueError.
Proof. reflexivity. Qed.

(* ... and that is the ONLY way binop fails *)
Theorem C09_binop_error_iff : forall A B C (op : A -> B -> C) list1 l r e,
  binop op list1 l r = Err e <->
  e = ValueError /\ exists r', r = Seq r' /\ length l <> 1 /\ length r' <> 1 /\ length l <> length r'.
Proof.
  intros A B C op list1 l r e. split.
  - destruct r as [s|r]; [rewrite C09_binop_scalar; discriminate|].
    intros H. apply binop_seq_err in H. destruct H as [-> Hn]. split; [reflexivity|].
    exists r. split; [reflexivity|]. unfold broadcastable in Hn. lia.
  - intros [-> [r' [-> [H1 [H2 H3]]]]]. now apply C09_binop_mismatch.
Qed.
Print Assumptions C09_binop_error_iff.

Theorem C09_binop_length : forall A B C (op : A -> B -> C) list1 l r v,
  binop op list1 l r = Ok v ->
  exists d, to_list v = Some d /\ length d = blen (length l) (rlen r).
Proof.
  intros A B C op list1 l r v H. rewrite binop_rdata in H. apply binop_seq_data in H. destruct H as [Hd Hc].
  eexists. split; [exact Hd|]. rewrite rlen_rdata in *. now apply bdata_length.
Qed.
Print Assumptions C09_binop_length.
Example C09_binop_length_ex : binop (@pair nat nat) true [1; 2; 3] (Seq [10]) = Ok (PList [(1, 10); (2, 10); (3, 10)])
  /\ blen 3 1 = 3 /\ binop (@pair nat nat) true [] (Seq []) = Ok (PList []) /\ blen 0 0 = 0.
Proof. repeat split. Qed.

(* the property's form: 1 op 1 -> 1, 1 op M -> M, M op 1 -> M, M op M -> M, i.e. max, for operands holding >= 1 values.
   Full statement (any lengths):  binop l r = Ok v -> length (to_list v) = max (length l) (rlen r)
   is FALSE of the faithful model for an empty operand (1 x 0 gives an empty result): _refuted + _partial. *)
Theorem C09_binop_length_max_refuted : exists (l r : list nat) v d,
  binop (@pair nat nat) true l (Seq r) = Ok v /\ to_list v = Some d /\ length d <> Nat.max (length l) (length r).
Proof. exists [1], [], (PList []), []. repeat split; simpl; lia. Qed.
Print Assumptions C09_binop_length_max_refuted.

Theorem C09_binop_length_max_partial : forall A B C (op : A -> B -> C) list1 l r v,
  1 <= length l -> 1 <= rlen r ->
  binop op list1 l r = Ok v ->
  exists d, to_list v = Some d /\ length d = Nat.max (length l) (rlen r).
Proof.
  intros A B C op list1 l r v Hl Hr H. rewrite binop_rdata in H. apply binop_seq_data in H. destruct H as [Hd Hc].
  eexists. split; [exact Hd|]. rewrite rlen_rdata in *. rewrite bdata_length by exact Hc. now apply blen_max.
Qed.
Print Assumptions C09_binop_length_max_partial.
Example C09_binop_length_max_ex :
  exists d, to_list (PList [(1, 10); (2, 10)]) = Some d /\ length d = Nat.max (length [1; 2]) (rlen (Seq [10])).
Proof. eexists; split; reflexivity. Qed.

(* result element i is the single-valued operation on the i-th elements, the lone value being reused *)
Theorem C09_binop_nth : forall A B C (op : A -> B -> C) list1 l r v d i,
  binop op list1 l r = Ok v -> to_list v = Some d -> i < blen (length l) (rlen r) ->
  nth_error d i = app2 op (pick i l) (pick_rhs i r).
Proof.
  intros A B C op list1 l r v d i H Hd Hi. rewrite binop_rdata in H. apply binop_seq_data in H. destruct H as [Hd' Hc].
  rewrite Hd in Hd'. injection Hd' as ->. rewrite rlen_rdata in Hi. rewrite pick_rhs_rdata.
  apply bdata_nth. now rewrite bdata_length.
Qed.
Print Assumptions C09_binop_nth.

(* the same, in the form "there are i-th elements and the result is op of them" *)
Corollary C09_binop_nth_some : forall A B C (op : A -> B -> C) list1 l r v d i,
  binop op list1 l r = Ok v -> to_list v = Some d -> i < blen (length l) (rlen r) ->
  exists a b, pick i l = Some a /\ pick_rhs i r = Some b /\ nth_error d i = Some (op a b).
Proof.
  intros A B C op list1 l r v d i H Hd Hi.
  pose proof (C09_binop_nth _ _ _ _ _ _ _ _ _ _ H Hd Hi) as Hn.
  pose proof (binop_length_of _ _ _ _ H Hd) as Hlen.
  assert (Hs : nth_error d i <> None) by (apply nth_error_Some; lia).
  destruct (pick i l) as [a|]; destruct (pick_rhs i r) as [b|]; simpl in Hn; try congruence.
  exists a, b. auto.
Qed.
Print Assumptions C09_binop_nth_some.
Example C09_binop_nth_ex : nth_error [(7, 10); (7, 11); (7, 12)] 2 = app2 (@pair nat nat) (pick 2 [7]) (pick_rhs 2 (Seq [10; 11; 12])).
Proof. reflexivity. Qed.

Theorem C09_op2_cases : forall A B C (op : A -> B -> C) a b l r,
  op2 op [a] (SameClass [b]) = Ok (Bare (op a b)) /\
  (length r <> 1 -> op2 op [a] (SameClass r) = Ok (PList (map (fun x => op a x) r))) /\
  (length l <> 1 -> op2 op l (SameClass [b]) = Ok (PList (map (fun x => op x b) l))) /\
  (length l <> 1 -> length r <> 1 -> length l = length r -> op2 op l (SameClass r) = Ok (PList (zip_with op l r))) /\
  (length l <> 1 -> length r <> 1 -> length l <> length r -> op2 op l (SameClass r) = Err ValueError).
Proof.
  intros. repeat split; intros; rewrite (op2_same_binop op true) by auto.
  - now apply C09_binop_1xM.
  - now apply C09_binop_Mx1.
  - now apply C09_binop_MxM.
  - now apply C09_binop_mismatch.
Qed.
Print Assumptions C09_op2_cases.
Example C09_op2_cases_ex : op2 (@pair nat nat) [1; 2; 3] (SameClass [10; 11; 12]) = Ok (PList [(1, 10); (2, 11); (3, 12)])
  /\ op2 (@pair nat nat) [1; 2; 3] (SameClass [10; 11]) = Err ValueError.
Proof. split; reflexivity. Qed.

(* _op2 and binop hold the same data for every pair of same-class operands (they differ only in wrapping a 1x1
   result), so every binop theorem above transfers to _op2 *)
Theorem C09_op2_binop_agree : forall A B C (op : A -> B -> C) list1 l r,
  match op2 op l (SameClass r), binop op list1 l (Seq r) with
  | Ok v, Ok w => to_list v = to_list w /\ to_list v <> None
  | Err e, Err e' => e = e'
  | _, _ => False
  end.
Proof.
  intros. unfold op2, binop.
  split_list l; split_list r; simpl; try destruct list1; simpl; try (split; [reflexivity|discriminate]); try reflexivity;
  (destruct (length l =? length r); [split; [reflexivity|discriminate]|reflexivity]).
Qed.
Print Assumptions C09_op2_binop_agree.

Theorem C09_op2_scalar_agree : forall A B C (op : A -> B -> C) list1 l s,
  match op2 op l (ScalarLike s), binop op list1 l (Scalar s) with
  | Ok v, Ok w => to_list v = to_list w /\ to_list v <> None
  | _, _ => False
  end.
Proof. intros. unfold op2, binop. split_list l; simpl; try destruct list1; simpl; split; try reflexivity; discriminate. Qed.
Print Assumptions C09_op2_scalar_agree.

Theorem C09_op2_nth : forall A B C (op : A -> B -> C) l r v d i,
  op2 op l (SameClass r) = Ok v -> to_list v = Some d -> i < blen (length l) (length r) ->
  length d = blen (length l) (length r) /\ nth_error d i = app2 op (pick i l) (pick i r).
Proof.
  intros A B C op l r v d i H Hd Hi.
  pose proof (C09_op2_binop_agree _ _ _ op true l r) as Ag. rewrite H in Ag.
  destruct (binop op true l (Seq r)) as [w|e] eqn:Hb; [|contradiction].
  destruct Ag as [Ag _]. rewrite Hd in Ag. symmetry in Ag. split.
  - exact (binop_length_of _ _ _ _ Hb Ag).
  - exact (C09_binop_nth _ _ _ _ _ _ _ _ _ _ Hb Ag Hi).
Qed.
Print Assumptions C09_op2_nth.
Example C09_op2_nth_ex : op2 (@pair nat nat) [7] (SameClass [10; 11; 12]) = Ok (PList [(7, 10); (7, 11); (7, 12)])
  /\ 2 < blen 1 3 /\ app2 (@pair nat nat) (pick 2 [7]) (pick 2 [10; 11; 12]) = Some (7, 12).
Proof. repeat split; unfold blen; simpl; lia. Qed.

Theorem C09_op2_mismatch_gt1 : forall A B C (op : A -> B -> C) l r,
  1 < length l -> 1 < length r -> length l <> length r -> op2 op l (SameClass r) = Err ValueError.
Proof.
  intros A B C op l r H1 H2 H3. rewrite (op2_same_binop op true) by lia. apply C09_binop_mismatch; lia.
Qed.
Print Assumptions C09_op2_mismatch_gt1.

(* an unsupported right operand raises (fix 5b6b922: _op2 used to fall off the end and return None); whenever _op2 returns,
   it returns data *)
Theorem C09_op2_foreign : forall A B C (op : A -> B -> C) l, op2 op l (@Foreign B) = Err ValueError.
Proof. reflexivity. Qed.
Print Assumptions C09_op2_foreign.

Theorem C09_op2_never_none : forall A B C (op : A -> B -> C) l r v, op2 op l r = Ok v -> to_list v <> None.
Proof.
  intros A B C op l r v. unfold op2. destruct r as [r|s|]; [| |discriminate].
  - pose proof (C09_op2_binop_agree A B C op true l r) as Ag. unfold op2 in Ag. intros H. rewrite H in Ag.
    destruct (binop op true l (Seq r)); [apply Ag|contradiction].
  - split_list l; simpl; intros H; injection H as <-; discriminate.
Qed.
Print Assumptions C09_op2_never_none.

Theorem C09_unop_map : forall A C (f : A -> C) l,
  unop f l = map f l /\ length (unop f l) = length l /\ forall i, nth_error (unop f l) i = option_map f (nth_error l i).
Proof. intros. unfold unop. repeat split. apply map_length. intros; apply nth_error_map. Qed.
Print Assumptions C09_unop_map.

(* accessors that branch on len(self) == 1, that unwrap a one-element result, or that rebuild an object: M results,
   element i is f of element i (modulo the single-value unwrapping, which to_list undoes) *)
Theorem C09_accessors_map : forall A C (f : A -> C) l,
  to_list (acc_branch1 f l) = Some (map f l) /\
  to_list (acc_map_unwrap f l) = Some (map f l) /\
  to_list (acc_map f l) = Some (map f l).
Proof. intros. unfold acc_branch1, acc_map_unwrap, acc_map. split_list l; simpl; auto. Qed.
Print Assumptions C09_accessors_map.
Example C09_accessors_map_ex : acc_branch1 S [4] = Bare 5 /\ acc_branch1 S [4; 6] = PList [5; 7] /\ acc_map_unwrap S [4] = Bare 5.
Proof. repeat split. Qed.

(* All per-value accessors of the eight classes have one of the three shapes of C09_accessors_map, which is the full-strength
   statement (the library's commits 42a8032 3803e60 5d38d76 7b9d842 77cb365 a77df5a 3804c67, earlier 98c866c 4908bfb 66f9b8b,
   gave the last of them a sequence branch). *)

Theorem C09_interp_vector_s : forall A S C (f : A -> S -> C) a s, s <> [] ->
  pose_interp f [a] s = Ok (map (fun x => f a x) s).
Proof. intros A S C f a s H. destruct s as [|s0 [|s1 s]]; [congruence|reflexivity|reflexivity]. Qed.
Print Assumptions C09_interp_vector_s.
Example C09_interp_vector_s_ex : pose_interp (@pair nat nat) [5] [0; 1; 2] = Ok [(5, 0); (5, 1); (5, 2)].
Proof. reflexivity. Qed.

Theorem C09_interp_scalar_s : forall A S C (f : A -> S -> C) l s0,
  pose_interp f l [s0] = Ok (map (fun x => f x s0) l).
Proof. reflexivity. Qed.
Print Assumptions C09_interp_scalar_s.

Theorem C09_interp_both_many : forall A S C (f : A -> S -> C) l s,
  length l <> 1 -> 1 < length s -> pose_interp f l s = Err AssertionError.
Proof.
  intros A S C f l s Hl Hs. destruct s as [|s0 [|s1 s]]; simpl in Hs; try lia.
  split_list l; simpl in *; try reflexivity. lia.
Qed.
Print Assumptions C09_interp_both_many.
Example C09_interp_both_many_ex : pose_interp (@pair nat nat) [1; 2] [0; 1] = Err AssertionError.
Proof. reflexivity. Qed.

(* Histories.
   Whatever sequence of list mutations an object went through, the helpers see only its current values: the broadcasting
   statements hold of the mutated operands exactly as of fresh ones. *)
Theorem C09_history_unary : forall A C (f : A -> C) (h : list (mutation A)) l,
  unop f (run_history h l) = map f (run_history h l) /\
  to_list (acc_branch1 f (run_history h l)) = Some (map f (run_history h l)) /\
  to_list (acc_map_unwrap f (run_history h l)) = Some (map f (run_history h l)).
Proof. intros. split; [reflexivity|]. destruct (C09_accessors_map A C f (run_history h l)) as [H1 [H2 _]]. auto. Qed.
Print Assumptions C09_history_unary.

Theorem C09_history_binop : forall A B C (op : A -> B -> C) list1 (hl : list (mutation A)) (hr : list (mutation B)) l r v d i,
  binop op list1 (run_history hl l) (Seq (run_history hr r)) = Ok v -> to_list v = Some d ->
  i < blen (length (run_history hl l)) (length (run_history hr r)) ->
  length d = blen (length (run_history hl l)) (length (run_history hr r)) /\
  nth_error d i = app2 op (pick i (run_history hl l)) (pick i (run_history hr r)).
Proof.
  intros A B C op list1 hl hr l r v d i H Hd Hi. split.
  - exact (binop_length_of _ _ _ _ H Hd).
  - exact (C09_binop_nth _ _ _ _ _ _ _ _ _ _ H Hd Hi).
Qed.
Print Assumptions C09_history_binop.
Example C09_history_binop_ex :
  run_history [MAppend 3; MReverse; MPop 0; MSet 0 9; MInsert 1 5] [1; 2] = [9; 5; 1] /\
  binop (@pair nat nat) true (run_history [MAppend 3; MReverse; MPop 0; MSet 0 9; MInsert 1 5] [1; 2]) (Seq (run_history [MPopLast] [7; 8]))
    = Ok (PList [(9, 7); (5, 7); (1, 7)]).
Proof. split; reflexivity. Qed.

(* Keyword options.
   A method's keyword options (unit, order, flip, twist, shortest, dest/start, theta ...) are an extra argument o of the per-value
   function.  The sequence forms apply ONE option value to every element: the M-valued result is map (g o), and interpolation over a
   vector of s with options o is the list of the single-valued calls made with the same o.  props/C09.py sweeps the options of
   every vectorised method (read from the signatures) against these statements. *)
Theorem C09_accessors_options : forall O A C (g : O -> A -> C) (o : O) l,
  to_list (acc_branch1 (g o) l) = Some (map (g o) l) /\
  to_list (acc_map_unwrap (g o) l) = Some (map (g o) l) /\
  to_list (acc_map (g o) l) = Some (map (g o) l).
Proof. intros. apply C09_accessors_map. Qed.
Print Assumptions C09_accessors_options.

Theorem C09_interp_options : forall O A S C (f : O -> A -> S -> C) (o : O) a l s s0, s <> [] ->
  pose_interp (f o) [a] s = Ok (map (fun x => f o a x) s) /\
  pose_interp (f o) l [s0] = Ok (map (fun x => f o x s0) l).
Proof. intros. split; [now apply C09_interp_vector_s | apply C09_interp_scalar_s]. Qed.
Print Assumptions C09_interp_options.
Example C09_interp_options_ex :
  pose_interp ((fun (shortest : bool) (q : nat) (s : nat) => (shortest, q, s)) true) [5] [1; 2] = Ok [(true, 5, 1); (true, 5, 2)].
Proof. reflexivity. Qed.

(* The same object on both sides.
   x op x (one object under two names, or an operand that shares its values with the other) is the instance left = right of the
   general theorems: the helper never fails and the result is op x x of every value.  Nothing new has to be modelled; the oracle
   has to include the aliasing case (props/C09.py: alias_grid), because an implementation may short-cut on identity. *)
Theorem C09_binop_same_operand : forall A C (op : A -> A -> C) list1 l,
  exists v, binop op list1 l (Seq l) = Ok v /\ to_list v = Some (map (fun x => op x x) l).
Proof.
  intros A C op list1 l. destruct (Nat.eq_dec (length l) 1) as [L1|L1].
  - destruct l as [|a [|? ?]]; try discriminate L1. rewrite C09_binop_1x1. destruct list1; eexists; split; reflexivity.
  - rewrite C09_binop_MxM by auto. eexists; split; [reflexivity|]. simpl. now rewrite zip_with_diag.
Qed.
Print Assumptions C09_binop_same_operand.

Theorem C09_op2_same_operand : forall A C (op : A -> A -> C) l,
  exists v, op2 op l (SameClass l) = Ok v /\ to_list v = Some (map (fun x => op x x) l).
Proof.
  intros A C op l. destruct (C09_binop_same_operand A C op true l) as [w [Hw Hd]].
  pose proof (C09_op2_binop_agree A A C op true l l) as Ag. rewrite Hw in Ag.
  destruct (op2 op l (SameClass l)) as [v|e]; [|contradiction]. exists v. split; [reflexivity|]. destruct Ag as [Ag _]. now rewrite Ag.
Qed.
Print Assumptions C09_op2_same_operand.
Example C09_same_operand_ex : binop (fun x y : nat => Nat.eqb x y) false [3; 4; 5] (Seq [3; 4; 5]) = Ok (PList [true; true; true])
  /\ op2 (@pair nat nat) [3; 4] (SameClass [3; 4]) = Ok (PList [(3, 3); (4, 4)]).
Proof. split; reflexivity. Qed.
