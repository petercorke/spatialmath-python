(* C10 -- MODEL of SMUserList.arghandler, branch "list / tuple whose first element is an object of the same class"
   (spatialmath/smuserlist.py, the constructor C([X1, X2, ...]) of every pose / quaternion / twist class), over element tags.

       elif isinstance(arg, (list, tuple)):
           if len(arg) == 0:  self.data = []                                              (fix 1105ad0)
           ...
           elif type(arg[0]) == type(self):
               assert all(map(lambda x: type(x) == type(self), arg))                      -> AssertionError
               if not all(len(x) == 1 for x in arg): raise ValueError(..)                 (fix 2eab8b7)
               self.data = [x.A for x in arg]

   An element of the argument list is either an object of the same class, given by the list of values it holds (ANY length:
   empty, single, multi-valued), or anything else.  The first element is of the same class (the other dispatch branches of
   arghandler are modelled in C07_Ctor.v / probed by props/C10.py).  Tied to /repo on every run by props/C10.py: EVERY argument
   list of length <= 4 over elements holding 0..3 values or foreign is constructed through every list-capable class and
   compared with `ctor_objs` evaluated by vm_compute (T-tab).  No Reals, no axioms. *)
From Coq Require Import ZArith List Lia Bool.
From SM Require Import Model.C10_PyList Model.C10_SMList.
Import ListNotations.
Open Scope Z_scope.

Inductive elem := ESame (ts : list Z) | EOther.

Definition is_same (e : elem) : bool := match e with ESame _ => true | EOther => false end.
Definition is_single (e : elem) : bool := match e with ESame ts => zlen ts =? 1 | EOther => false end.
Definition elem_A (e : elem) : Z := match e with ESame ts => obj_A ts | EOther => g_row end.
Definition elem_vals (e : elem) : list Z := match e with ESame ts => ts | EOther => [] end.

(* the result: the new .data, or the exception *)
Definition ctor_objs (els : list elem) : res (list Z) :=
  match els with
  | [] => Ok []
  | EOther :: _ => Raise TypeError                      (* not this branch: outside the model (see header) *)
  | ESame _ :: _ =>
      if negb (forallb is_same els) then Raise AssertionError
      else if negb (forallb is_single els) then Raise ValueError
      else Ok (map elem_A els)
  end.

(* what a Python list built from the same objects holds: the values of the elements, in order *)
Definition spec_values (els : list elem) : list Z := concat (map elem_vals els).

Lemma single_A_vals : forall e, is_single e = true -> [elem_A e] = elem_vals e.
Proof.
  intros [ts|]; cbn; [|discriminate]. unfold zlen. intro H. apply Z.eqb_eq in H.
  destruct ts as [|t [|u r]]; cbn in *; try lia. reflexivity.
Qed.

Lemma all_single_concat : forall els, forallb is_single els = true -> map elem_A els = spec_values els.
Proof.
  induction els as [|e r IH]; cbn; intros H; [reflexivity|].
  apply andb_true_iff in H. destruct H as [He Hr]. unfold spec_values in *. cbn.
  rewrite <- (single_A_vals e He), <- (IH Hr). reflexivity.
Qed.

Lemma single_is_same : forall els, forallb is_single els = true -> forallb is_same els = true.
Proof.
  induction els as [|e r IH]; cbn; intros H; [reflexivity|].
  apply andb_true_iff in H. destruct H as [He Hr]. rewrite (IH Hr). destruct e; [reflexivity|discriminate].
Qed.

(* accepted exactly when every element is a single-valued object of the class; the result is then the list of their values *)
Lemma ctor_objs_ok_iff : forall els d,
  ctor_objs els = Ok d <-> (forallb is_single els = true /\ d = spec_values els).
Proof.
  intros els d. destruct els as [|[ts|] r]; cbn [ctor_objs].
  - cbn. intuition congruence.
  - destruct (forallb is_single (ESame ts :: r)) eqn:H1.
    + rewrite (single_is_same _ H1), (all_single_concat _ H1). cbn [negb]. intuition congruence.
    + destruct (forallb is_same (ESame ts :: r)); cbn [negb]; intuition discriminate.
  - cbn. intuition discriminate.
Qed.

Lemma ctor_objs_len : forall els d, ctor_objs els = Ok d -> zlen d = zlen els.
Proof.
  intros els d H. apply ctor_objs_ok_iff in H. destruct H as [H1 Hd]. subst d.
  rewrite <- (all_single_concat _ H1). unfold zlen. rewrite map_length. reflexivity.
Qed.

(* a multi-valued or an empty element ANYWHERE in a list of same-class objects: ValueError *)
Lemma ctor_objs_rejects : forall ts r,
  forallb is_same (ESame ts :: r) = true -> forallb is_single (ESame ts :: r) = false ->
  ctor_objs (ESame ts :: r) = Raise ValueError.
Proof. intros ts r Hs H1. cbn [ctor_objs]. rewrite Hs, H1. reflexivity. Qed.
