(* Unit quaternions as rotations, and the dual part (1/2) t r of a rigid motion: the facts the C04 and C05 class-layer
   theorems share.  The tactics norm_one and half_angle dispose of the normalisations (base.unit) the classes apply to whatever they build. *)
From Coq Require Import Reals Lra.
From SM Require Import Base.Ops Base.Lin Base.RInst Base.RLin.
Open Scope R_scope.

(* r p r* is the rotated point; for a quaternion of any norm the defect is (|r|^2 - 1) p *)
Lemma q_sandwich (r : V4 R) (p : V3 R) :
  qvec (qmul Rops (qmul Rops r (qpure Rops p)) (qconj Rops r))
  = vadd3 Rops (mv33 Rops (q2r_ref Rops r) p) (vscale3 Rops (qnormsq Rops r - 1) p).
Proof. lin_ring. Qed.

Lemma q_sandwich_unit (r : V4 R) (p : V3 R) : qnormsq Rops r = 1 ->
  qvec (qmul Rops (qmul Rops r (qpure Rops p)) (qconj Rops r)) = mv33 Rops (q2r_ref Rops r) p.
Proof. intros H. rewrite q_sandwich, H. lin_ring. Qed.

(* the same without the projection: r p = (R p) r *)
Lemma qmul_pure_rot (r : V4 R) (p : V3 R) : qnormsq Rops r = 1 ->
  qmul Rops r (qpure Rops p) = qmul Rops (qpure Rops (mv33 Rops (q2r_ref Rops r) p)) r.
Proof.
  intros H.
  replace (qmul Rops r (qpure Rops p)) with (vadd4 Rops (qmul Rops (qpure Rops (mv33 Rops (q2r_ref Rops r) p)) r)
    (vscale4 Rops (1 - qnormsq Rops r) (vsub4 Rops (qmul Rops r (qpure Rops p)) (qmul Rops (qpure Rops p) r)))) by lin_ring.
  rewrite H. lin_ring.
Qed.

(* the translation of the rigid motion (r, (1/2) t r) is 2 d r* *)
Lemma dual_part_transl (r : V4 R) (t : V3 R) : qnormsq Rops r = 1 ->
  vscale3 Rops 2 (qvec (qmul Rops (qmul Rops (vscale4 Rops (1/2) (qpure Rops t)) r) (qconj Rops r))) = t.
Proof. intros H. rewrite qmul_assoc, qmul_conj_r, H. destruct_tuples. lin_simpl. tuple_eq ltac:(field). Qed.

(* dual part of a product: r1 d2 + d1 r2 with d_i = (1/2) t_i r_i is (1/2) (t1 + R1 t2) r1 r2 *)
Lemma dual_part_mul (r1 r2 : V4 R) (t1 t2 : V3 R) : qnormsq Rops r1 = 1 ->
  vadd4 Rops (qmul Rops r1 (qmul Rops (vscale4 Rops (1/2) (qpure Rops t2)) r2))
             (qmul Rops (qmul Rops (vscale4 Rops (1/2) (qpure Rops t1)) r1) r2)
  = qmul Rops (vscale4 Rops (1/2) (qpure Rops (vadd3 Rops t1 (mv33 Rops (q2r_ref Rops r1) t2)))) (qmul Rops r1 r2).
Proof.
  intros H. rewrite <- (qmul_assoc r1).
  replace (qmul Rops r1 (vscale4 Rops (1/2) (qpure Rops t2))) with (vscale4 Rops (1/2) (qmul Rops r1 (qpure Rops t2))) by lin_ring.
  rewrite (qmul_pure_rot r1 t2 H). generalize (mv33 Rops (q2r_ref Rops r1) t2). intros u.
  destruct_tuples. lin_simpl. tuple_eq ltac:(field).
Qed.

(* H : P = 1, the unit-norm hypothesis.  Every square root and every non-numeric denominator of the goal is such a norm:
   each is P up to ring normalisation, an outer one once the inner ones have become 1. *)
Ltac norm_one H :=
  match type of H with ?P = 1 =>
    repeat match goal with |- context [sqrt ?x] => replace x with P by (first [ring | field; lra]); rewrite H, sqrt_1 end;
    repeat match goal with |- context [1 / ?x] =>
      lazymatch x with IZR _ => fail | _ => replace x with P by (first [ring | field; lra]); rewrite H end end;
    try replace (1 / 1) with 1 by field; rewrite ?Rmult_1_r, ?Rmult_1_l
  end.

(* cos t and sin t through the half angle, in the form the quaternion constructors need *)
Lemma half_cs (t : R) :
  cos t = 1 - 2 * (sin (1/2*t) * sin (1/2*t)) /\ sin t = 2 * sin (1/2*t) * cos (1/2*t)
  /\ cos (1/2*t) * cos (1/2*t) + sin (1/2*t) * sin (1/2*t) = 1.
Proof.
  assert (E : t = 2 * (1/2*t)) by field. pose proof (cs_unit (1/2*t)) as U. split; [|split; [|exact U]].
  - rewrite E at 1. rewrite cos_2a. lra.
  - rewrite E at 1. apply sin_2a.
Qed.
(* replace cos t, sin t by the half-angle pair (ch, sh), ch^2 + sh^2 = 1 *)
Ltac half_angle t :=
  let Hc := fresh "Hc" in let Hs := fresh "Hs" in let Hu := fresh "Hu" in
  destruct (half_cs t) as (Hc & Hs & Hu); rewrite ?Hc, ?Hs; clear Hc Hs;
  generalize dependent (cos (1/2*t)); generalize dependent (sin (1/2*t)); intros sh ch Hu.

(* the normalised half-angle quaternion about a coordinate axis, as the UnitQuaternion.Rx/Ry/Rz constructors build it *)
Lemma half_angle_rot (c s : R) : c*c + s*s = 1 ->
  q2r_ref Rops (1 / sqrt (c*c + s*s) * c, 1 / sqrt (c*c + s*s) * s, 0, 0) = rotx_cs Rops (1 - 2*(s*s)) (2*s*c) /\
  q2r_ref Rops (1 / sqrt (c*c + s*s) * c, 0, 1 / sqrt (c*c + s*s) * s, 0) = roty_cs Rops (1 - 2*(s*s)) (2*s*c) /\
  q2r_ref Rops (1 / sqrt (c*c + s*s) * c, 0, 0, 1 / sqrt (c*c + s*s) * s) = rotz_cs Rops (1 - 2*(s*s)) (2*s*c).
Proof. intros H. rewrite H, sqrt_1. lin_simpl. repeat split; tuple_eq ltac:(field). Qed.
