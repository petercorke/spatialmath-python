(* The adjoint representation in 3x3 blocks, on (linear; angular) 6-vectors:
     Ad(R,t) = [[R, skew(t) R],[0, R]]      ad(v,w) = [[skew w, skew v],[0, skew w]].
   Ad is multiplicative, and conjugating ad by Ad is ad of the transformed twist. *)
From Coq Require Import Reals.
From SM Require Import Base.Ops Base.Lin Base.RInst Base.RLin.
Open Scope R_scope.

(* block upper-triangular matrices multiply blockwise *)
Lemma mmul66_block (A B D A' B' D' : M33 R) :
  mmul66 Rops (block66 A B (Z33 Rops) D) (block66 A' B' (Z33 Rops) D')
  = block66 (mmul33 Rops A A') (madd33 Rops (mmul33 Rops A B') (mmul33 Rops B D')) (Z33 Rops) (mmul33 Rops D D').
Proof. lin_ring. Qed.

(* a 6-vector is (linear part; angular part) *)
Definition lin (s : V6 R) : V3 R := let '(v0,v1,v2,_,_,_) := s in (v0,v1,v2).
Definition ang (s : V6 R) : V3 R := let '(_,_,_,w0,w1,w2) := s in (w0,w1,w2).
Lemma v6_eta (s : V6 R) : s = v6 (lin s) (ang s).
Proof. destruct_tuples. reflexivity. Qed.
Lemma lin_v6 (v w : V3 R) : lin (v6 v w) = v.
Proof. destruct_tuples. reflexivity. Qed.
Lemma ang_v6 (v w : V3 R) : ang (v6 v w) = w.
Proof. destruct_tuples. reflexivity. Qed.

Definition Adb (Rm : M33 R) (t : V3 R) : M66 R := block66 Rm (mmul33 Rops (skew3 Rops t) Rm) (Z33 Rops) Rm.
Definition adb (v w : V3 R) : M66 R := block66 (skew3 Rops w) (skew3 Rops v) (Z33 Rops) (skew3 Rops w).
Definition ad6 (s : V6 R) : M66 R := adb (lin s) (ang s).
#[export] Hint Unfold lin ang Adb adb ad6 : smlin.

Lemma Adb_I : Adb (I33 Rops) (0,0,0) = I66 Rops.
Proof. lin_ring. Qed.
Lemma Adb_mv (Rm : M33 R) (t v w : V3 R) :
  mv66 Rops (Adb Rm t) (v6 v w) = v6 (vadd3 Rops (mv33 Rops Rm v) (cross3 Rops t (mv33 Rops Rm w))) (mv33 Rops Rm w).
Proof. lin_ring. Qed.
Lemma adb_mv (v w a b : V3 R) :
  mv66 Rops (adb v w) (v6 a b) = v6 (vadd3 Rops (cross3 Rops w a) (cross3 Rops v b)) (cross3 Rops w b).
Proof. lin_ring. Qed.

(* Ad(Ra,ta) Ad(Rb,tb) = Ad(Ra Rb, Ra tb + ta): the only step that needs Ra in SO(3) is Ra skew(tb) = skew(Ra tb) Ra *)
Lemma Adb_mul (Ra Rb : M33 R) (ta tb : V3 R) : SO3 Ra ->
  mmul66 Rops (Adb Ra ta) (Adb Rb tb) = Adb (mmul33 Rops Ra Rb) (vadd3 Rops (mv33 Rops Ra tb) ta).
Proof.
  intros HR. unfold Adb. rewrite mmul66_block, <- (mmul33_assoc Ra (skew3 Rops tb)), (SO3_skew Ra tb HR). f_equal.
  generalize (mv33 Rops Ra tb). lin_ring.
Qed.
(* Ad ad(S) = ad(Ad S) Ad; beyond R skew(x) = skew(R x) R this is skew(t x u) = [skew t, skew u] *)
Lemma Adb_ad6 (Rm : M33 R) (t : V3 R) (s : V6 R) : SO3 Rm ->
  mmul66 Rops (Adb Rm t) (ad6 s) = mmul66 Rops (ad6 (mv66 Rops (Adb Rm t) s)) (Adb Rm t).
Proof.
  intros HR. rewrite (v6_eta s). generalize (lin s) (ang s). intros v w. unfold ad6. rewrite Adb_mv, !lin_v6, !ang_v6.
  unfold Adb, adb. rewrite !mmul66_block, !mmul33_assoc, (SO3_skew Rm w HR), (SO3_skew Rm v HR). f_equal.
  generalize (mv33 Rops Rm v) (mv33 Rops Rm w). lin_ring.
Qed.
(* the same on vectors: Ad (S x M) = (Ad S) x (Ad M) for the motion cross product S x M = ad(S) M *)
Lemma Adb_ad6_mv (Rm : M33 R) (t : V3 R) (s m : V6 R) : SO3 Rm ->
  mv66 Rops (Adb Rm t) (mv66 Rops (ad6 s) m) = mv66 Rops (ad6 (mv66 Rops (Adb Rm t) s)) (mv66 Rops (Adb Rm t) m).
Proof.
  intros HR. rewrite (v6_eta s), (v6_eta m). generalize (lin s) (ang s) (lin m) (ang m). intros v w a b. unfold ad6.
  rewrite !lin_v6, !ang_v6, adb_mv, !Adb_mv, !lin_v6, !ang_v6, adb_mv, mv33_vadd3, <- !(SO3_cross Rm _ _ HR).
  generalize (mv33 Rops Rm v) (mv33 Rops Rm w) (mv33 Rops Rm a) (mv33 Rops Rm b). lin_ring.
Qed.

(* the adjoint of a homogeneous transform *)
Definition Ad4 (X : M44 R) : M66 R := Adb (t2r3 X) (transl3 X).
#[export] Hint Unfold Ad4 : smlin.
Lemma Ad4_I : Ad4 (I44 Rops) = I66 Rops.
Proof. apply Adb_I. Qed.
Lemma Ad4_mul (X Y : M44 R) : SE3 X -> SE3 Y -> Ad4 (mmul44 Rops X Y) = mmul66 Rops (Ad4 X) (Ad4 Y).
Proof.
  intros HX HY. rewrite (SE3_decompose X HX), (SE3_decompose Y HY), mmul44_rt. unfold Ad4.
  rewrite !t2r3_rt, !transl3_rt. symmetry. apply Adb_mul, HX.
Qed.
Lemma Ad4_inv_l (X : M44 R) : SE3 X -> mmul66 Rops (Ad4 (trinv_ref X)) (Ad4 X) = I66 Rops.
Proof. intros HX. rewrite <- Ad4_mul, (SE3_inv_l X HX); [apply Ad4_I | apply SE3_inv, HX | exact HX]. Qed.
Lemma Ad4_inv_r (X : M44 R) : SE3 X -> mmul66 Rops (Ad4 X) (Ad4 (trinv_ref X)) = I66 Rops.
Proof. intros HX. rewrite <- Ad4_mul, (SE3_inv_r X HX); [apply Ad4_I | exact HX | apply SE3_inv, HX]. Qed.
(* Ad(X^-1) = [[R', (skew(t) R)'],[0, R']] *)
Lemma Ad4_inv_blocks (X : M44 R) : SE3 X ->
  Ad4 (trinv_ref X)
  = block66 (mtr33 (t2r3 X)) (mtr33 (mmul33 Rops (skew3 Rops (transl3 X)) (t2r3 X))) (Z33 Rops) (mtr33 (t2r3 X)).
Proof.
  intros [HR _]. unfold Ad4, trinv_ref, Adb. rewrite t2r3_rt, transl3_rt. f_equal.
  rewrite mtr33_mul. replace (mtr33 (skew3 Rops (transl3 X))) with (skew3 Rops (vneg3 Rops (transl3 X))) by lin_ring.
  rewrite (SO3_skew _ (vneg3 Rops (transl3 X)) (SO3_tr _ HR)). do 2 f_equal. lin_ring.
Qed.

(* the 4x4 form [S] = [[skew w, v],[0, 0]] of a twist S = (v; w): X [S] X^-1 = [Ad(X) S] *)
Definition rt0 (M : M33 R) (v : V3 R) : M44 R :=
  let '((m00,m01,m02),(m10,m11,m12),(m20,m21,m22)) := M in let '(v0,v1,v2) := v in
  ((m00,m01,m02,v0),(m10,m11,m12,v1),(m20,m21,m22,v2),(0,0,0,0)).
Definition hat6 (s : V6 R) : M44 R := rt0 (skew3 Rops (ang s)) (lin s).
#[export] Hint Unfold rt0 hat6 : smlin.
Lemma mmul44_rt_rt0 (Rm M : M33 R) (t v : V3 R) :
  mmul44 Rops (rt2tr3 Rops Rm t) (rt0 M v) = rt0 (mmul33 Rops Rm M) (mv33 Rops Rm v).
Proof. lin_ring. Qed.
Lemma mmul44_rt0_rt (Rm M : M33 R) (t v : V3 R) :
  mmul44 Rops (rt0 M v) (rt2tr3 Rops Rm t) = rt0 (mmul33 Rops M Rm) (vadd3 Rops (mv33 Rops M t) v).
Proof. lin_ring. Qed.
Lemma Adb_hat (Rm : M33 R) (t : V3 R) (s : V6 R) : SO3 Rm ->
  mmul44 Rops (rt2tr3 Rops Rm t) (hat6 s) = mmul44 Rops (hat6 (mv66 Rops (Adb Rm t) s)) (rt2tr3 Rops Rm t).
Proof.
  intros HR. rewrite (v6_eta s). generalize (lin s) (ang s). intros v w. unfold hat6.
  rewrite Adb_mv, !lin_v6, !ang_v6, mmul44_rt_rt0, mmul44_rt0_rt, (SO3_skew Rm w HR). f_equal.
  generalize (mv33 Rops Rm v) (mv33 Rops Rm w). lin_ring.
Qed.
Lemma Ad4_hat (X : M44 R) (s : V6 R) : SE3 X ->
  mmul44 Rops (mmul44 Rops X (hat6 s)) (trinv_ref X) = hat6 (mv66 Rops (Ad4 X) s).
Proof.
  intros HX. pose proof (Adb_hat (t2r3 X) (transl3 X) s (proj1 HX)) as E. rewrite <- (SE3_decompose X HX) in E.
  rewrite E, mmul44_assoc, (SE3_inv_r X HX). apply mmul44_I_r.
Qed.
