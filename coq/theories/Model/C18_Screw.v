(* C18 -- reference screw-motion model and its geometry over R.
   [screw_cs S th c s] is the closed form of exp(th [S]) for a twist S = (v, w) with unit w, written with
   (c, s) in place of (cos th, sin th): rotation block Rodrigues(w; c, s), translation V(w; th, c, s) v.
   The generated traces of Twist3.exp / Twist2.exp are proved equal to these closed forms in Props/C18*.v
   (for all inputs on the traced path); the geometric content of the property is proved here once.
   The file ends with what Props/C18*.v share about the traced path: the threshold [tiny], the tactics abs_cases
   (the two signs under an absolute value) and pc_props (path condition -> order facts), and screw_cs_abs. *)
From Coq Require Import Reals ZArith Lra Nsatz Psatz.
From SM Require Import Base.Ops Base.Lin Base.RInst Base.RLin Model.C03_ExpLog Model.C03_Lemmas.
Set Warnings "-notation-overridden".

Section Gen.
Context {T : Type} (O : ops T).
Local Notation "0" := (zero O). Local Notation "1" := (one O).
Local Infix "+" := (add O). Local Infix "-" := (sub O). Local Infix "*" := (mul O).
Local Infix "/" := (div O). Local Notation "- x" := (neg O x).

(* I + s K + (1-c) K^2,  K = skew w *)
Definition rodrigues_cs (w : V3 T) (c s : T) : M33 T :=
  madd33 O (madd33 O (I33 O) (mscale33 O s (skew3 O w))) (mscale33 O (1 - c) (mmul33 O (skew3 O w) (skew3 O w))).
(* th I + (1-c) K + (th - s) K^2 *)
Definition vmat_cs (w : V3 T) (th c s : T) : M33 T :=
  madd33 O (madd33 O (mscale33 O th (I33 O)) (mscale33 O (1 - c) (skew3 O w)))
         (mscale33 O (th - s) (mmul33 O (skew3 O w) (skew3 O w))).
Definition tw_v (S : V6 T) : V3 T := let '(v0,v1,v2,_,_,_) := S in (v0,v1,v2).
Definition tw_w (S : V6 T) : V3 T := let '(_,_,_,w0,w1,w2) := S in (w0,w1,w2).
Definition screw_cs (S : V6 T) (th c s : T) : M44 T :=
  rt2tr3 O (rodrigues_cs (tw_w S) c s) (mv33 O (vmat_cs (tw_w S) th c s) (tw_v S)).
(* the twist of a revolute joint about the line {q + l w}: (v, w) = (-(w x q), w) *)
Definition revolute_tw (w q : V3 T) : V6 T := v6 (vneg3 O (cross3 O w q)) w.
Definition prismatic_tw (d : V3 T) : V6 T := v6 d (0,0,0).
Definition vscale6 (k : T) (S : V6 T) : V6 T :=
  let '(a0,a1,a2,a3,a4,a5) := S in (k*a0, k*a1, k*a2, k*a3, k*a4, k*a5).
(* a / |a| *)
Definition unitv3 (a : V3 T) : V3 T := let '(a0,a1,a2) := a in let n := norm3 O a in (a0/n, a1/n, a2/n).
Definition unitv2 (a : V2 T) : V2 T := let '(a0,a1) := a in let n := sqrt_ O (a0*a0 + a1*a1) in (a0/n, a1/n).
Definition hpoint3 (p : V3 T) : V4 T := let '(x,y,z) := p in (x,y,z,1).
Definition skewa6 (S : V6 T) : M44 T :=
  let '(v0,v1,v2,w0,w1,w2) := S in ((0,-w2,w1,v0),(w2,0,-w0,v1),(-w1,w0,0,v2),(0,0,0,0)).

(* planar: S = (v0, v1, w) with w = 1 *)
Definition screw2_cs (S : V3 T) (c s : T) : M33 T :=
  let '(v0,v1,_) := S in
  rt2tr2 O (rot2_cs O c s) (s*v0 - (1 - c)*v1, (1 - c)*v0 + s*v1).
Definition revolute2_tw (q : V2 T) : V3 T := let '(q0,q1) := q in (q1, -q0, 1).
Definition hpoint2 (p : V2 T) : V3 T := let '(x,y) := p in (x,y,1).
Definition skewa3 (S : V3 T) : M33 T := let '(v0,v1,w) := S in ((0,-w,v0),(w,0,v1),(0,0,0)).
End Gen.

#[export] Hint Unfold rodrigues_cs vmat_cs tw_v tw_w screw_cs revolute_tw prismatic_tw vscale6 hpoint3 skewa6
  screw2_cs revolute2_tw hpoint2 skewa3 unitv3 unitv2 : smlin.

Open Scope R_scope.
Local Ltac start := intros; destruct_tuples; lin_simpl.

Lemma unitv3_unit (a : V3 R) : 0 < norm3 Rops a -> dot3 Rops (unitv3 Rops a) (unitv3 Rops a) = 1.
Proof.
  intros H. destruct_tuples. apply unit_div3; [apply norm3_sq | lra].
Qed.
Lemma unitv3_scale (a : V3 R) : 0 < norm3 Rops a -> vscale3 Rops (norm3 Rops a) (unitv3 Rops a) = a.
Proof.
  intros H. revert H. destruct_tuples. unfold unitv3. generalize (norm3 Rops (r1, r0, r)). intros n H.
  lin_simpl. tuple_eq ltac:(field; lra).
Qed.
Lemma unitv2_unit (a : V2 R) : 0 < sqrt (dot2 Rops a a) -> dot2 Rops (unitv2 Rops a) (unitv2 Rops a) = 1.
Proof.
  destruct a as [x y]. lin_simpl. intros H.
  assert (Hn : sqrt (x*x + y*y) * sqrt (x*x + y*y) = x*x + y*y) by (apply sqrt_sqrt; nra).
  revert H Hn. generalize (sqrt (x*x + y*y)). intros n H Hn. field_simplify_eq; [nra | lra].
Qed.

(* the two blocks are those of the hand model of trexp (Model/C03_ExpLog.v), whose lemmas carry over *)
Lemma rodrigues_cs_C03 (w : V3 R) c s : rodrigues_cs Rops w c s = C03_ExpLog.rodrigues_cs Rops w c s.
Proof. unfold C03_ExpLog.rodrigues_cs. lin_ring. Qed.
Lemma vmat_cs_C03 (w : V3 R) th c s : vmat_cs Rops w th c s = Vmat_cs Rops w th c s.
Proof. unfold Vmat_cs. lin_ring. Qed.

Lemma rodrigues_SO3 (w : V3 R) c s : dot3 Rops w w = 1 -> c*c + s*s = 1 -> SO3 (rodrigues_cs Rops w c s).
Proof. rewrite rodrigues_cs_C03. apply rodrigues_cs_SO3. Qed.

(* the axis is invariant *)
Lemma rodrigues_axis (w : V3 R) c s : mv33 Rops (rodrigues_cs Rops w c s) w = w.
Proof. start. tuple_eq ltac:(ring). Qed.

(* Rodrigues' rotation formula: R u = c u + s (w x u) + (1-c)(w.u) w  -- rotation by the angle (c,s) about +w *)
Lemma rodrigues_formula (w u : V3 R) c s : dot3 Rops w w = 1 ->
  mv33 Rops (rodrigues_cs Rops w c s) u =
  vadd3 Rops (vadd3 Rops (vscale3 Rops c u) (vscale3 Rops s (cross3 Rops w u)))
             (vscale3 Rops ((1 - c) * dot3 Rops w u) w).
Proof. start. tuple_eq ltac:(nsatz). Qed.

(* angle and sense: trace = 1 + 2c, antisymmetric part = s w *)
Lemma rodrigues_trace (w : V3 R) c s : dot3 Rops w w = 1 -> trace33 Rops (rodrigues_cs Rops w c s) = 1 + 2*c.
Proof. start. nsatz. Qed.
Lemma rodrigues_vex (w : V3 R) c s : vex3 Rops (rodrigues_cs Rops w c s) = vscale3 Rops s w.
Proof. start. tuple_eq ltac:(field). Qed.

(* vectors orthogonal to the axis turn by exactly (c,s) in the plane (u, w x u) *)
Lemma rodrigues_perp (w u : V3 R) c s : dot3 Rops w w = 1 -> dot3 Rops w u = 0 ->
  mv33 Rops (rodrigues_cs Rops w c s) u = vadd3 Rops (vscale3 Rops c u) (vscale3 Rops s (cross3 Rops w u)).
Proof. intros Hw Hd. rewrite rodrigues_formula, Hd by exact Hw. clear Hw Hd. lin_ring. Qed.

Lemma screw_SE3 (S : V6 R) th c s : dot3 Rops (tw_w S) (tw_w S) = 1 -> c*c + s*s = 1 -> SE3 (screw_cs Rops S th c s).
Proof. intros. unfold screw_cs. apply SE3_rt. apply rodrigues_SO3; assumption. Qed.

Lemma screw_rotation_block (S : V6 R) th c s : t2r3 (screw_cs Rops S th c s) = rodrigues_cs Rops (tw_w S) c s.
Proof. start. reflexivity. Qed.

(* the motion is the rotation R about the line through q: p |-> q + R (p - q), for EVERY point p *)
Lemma screw_revolute_action (w q p : V3 R) th c s : dot3 Rops w w = 1 ->
  mv44 Rops (screw_cs Rops (revolute_tw Rops w q) th c s) (hpoint3 Rops p) =
  hpoint3 Rops (vadd3 Rops q (mv33 Rops (rodrigues_cs Rops w c s) (vsub3 Rops p q))).
Proof. start. tuple_eq ltac:(nsatz). Qed.

(* every point q + l w of the axis is fixed, for all l, th (no relation between th, c, s is needed) *)
Lemma screw_axis_fixed (w q : V3 R) th c s l : dot3 Rops w w = 1 ->
  mv44 Rops (screw_cs Rops (revolute_tw Rops w q) th c s) (hpoint3 Rops (vadd3 Rops q (vscale3 Rops l w))) =
  hpoint3 Rops (vadd3 Rops q (vscale3 Rops l w)).
Proof.
  intros Hw. rewrite screw_revolute_action by exact Hw.
  pose proof (rodrigues_axis w c s) as Ha. revert Ha. generalize (rodrigues_cs Rops w c s). intros Rm Ha.
  transitivity (hpoint3 Rops (vadd3 Rops q (vscale3 Rops l (mv33 Rops Rm w)))); [clear Ha Hw; lin_ring | rewrite Ha; reflexivity].
Qed.

(* one-parameter subgroup (angle addition), hence exp(-th S) exp(th S) = I *)
Lemma screw_add (S : V6 R) t1 c1 s1 t2 c2 s2 : dot3 Rops (tw_w S) (tw_w S) = 1 ->
  mmul44 Rops (screw_cs Rops S t1 c1 s1) (screw_cs Rops S t2 c2 s2) =
  screw_cs Rops S (t1 + t2) (c1*c2 - s1*s2) (s1*c2 + c1*s2).
Proof.
  intros Hw. unfold screw_cs.
  rewrite !rodrigues_cs_C03, !vmat_cs_C03, mmul44_rt, rodrigues_cs_mul, Vmat_cs_add, mv33_madd_mmul by exact Hw. reflexivity.
Qed.
Lemma screw_zero (S : V6 R) : screw_cs Rops S 0 1 0 = I44 Rops.
Proof. start. tuple_eq ltac:(ring). Qed.
Lemma screw_inverse (S : V6 R) th c s : dot3 Rops (tw_w S) (tw_w S) = 1 -> c*c + s*s = 1 ->
  mmul44 Rops (screw_cs Rops S (-th) c (-s)) (screw_cs Rops S th c s) = I44 Rops.
Proof.
  intros Hw Hc. rewrite screw_add by assumption. rewrite <- screw_zero with (S := S). f_equal; nsatz.
Qed.
(* negating the twist = negating the angle *)
Lemma screw_neg (S : V6 R) th c s :
  screw_cs Rops (vscale6 Rops (-1) S) th c s = screw_cs Rops S (-th) c (-s).
Proof. start. tuple_eq ltac:(ring). Qed.

Lemma revolute_tw_w (w q : V3 R) : tw_w (revolute_tw Rops w q) = w.
Proof. start. reflexivity. Qed.
Lemma revolute_pitch_zero (w q : V3 R) : dot3 Rops w (vneg3 Rops (cross3 Rops w q)) = 0.
Proof. start. ring. Qed.
(* w x v = q - (w.q) w : a point of the axis *)
Lemma revolute_pole_on_axis (w q : V3 R) : dot3 Rops w w = 1 ->
  cross3 Rops (vsub3 Rops (cross3 Rops w (vneg3 Rops (cross3 Rops w q))) q) w = (0,0,0).
Proof. start. tuple_eq ltac:(nsatz). Qed.

Lemma screw2_SE2 (S : V3 R) c s : c*c + s*s = 1 -> SE2 (screw2_cs Rops S c s).
Proof. intros H. destruct_tuples. apply SE2_rt, SO2_rot2, H. Qed.
Lemma screw2_action (q p : V2 R) c s :
  mv33 Rops (screw2_cs Rops (revolute2_tw Rops q) c s) (hpoint2 Rops p) =
  hpoint2 Rops (vadd2 Rops q (mv22 Rops (rot2_cs Rops c s) (vsub2 Rops p q))).
Proof. start. tuple_eq ltac:(ring). Qed.
Lemma screw2_pole_fixed (q : V2 R) c s :
  mv33 Rops (screw2_cs Rops (revolute2_tw Rops q) c s) (hpoint2 Rops q) = hpoint2 Rops q.
Proof. start. tuple_eq ltac:(ring). Qed.
Lemma screw2_add (S : V3 R) c1 s1 c2 s2 :
  mmul33 Rops (screw2_cs Rops S c1 s1) (screw2_cs Rops S c2 s2) = screw2_cs Rops S (c1*c2 - s1*s2) (s1*c2 + c1*s2).
Proof. start. tuple_eq ltac:(ring). Qed.
Lemma screw2_zero (S : V3 R) : screw2_cs Rops S 1 0 = I33 Rops.
Proof. start. tuple_eq ltac:(ring). Qed.

Definition tiny : R := 5 / 2251799813685248.     (* 10 * 2^-52, the iszerovec threshold *)
Lemma tiny_pos : 0 < tiny.  Proof. unfold tiny. lra. Qed.
Lemma tiny_small : tiny < 1.  Proof. unfold tiny. lra. Qed.
Lemma tiny_nonzero th : tiny <= Rabs th -> th <> 0.
Proof. intros H E. rewrite E, Rabs_R0 in H. pose proof tiny_pos. lra. Qed.

Ltac abs_cases th :=
  let Hneg := fresh "Hneg" in let Hpos := fresh "Hpos" in
  destruct (Rcase_abs th) as [Hneg|Hpos];
  [ rewrite !(Rabs_left th Hneg), ?sin_neg, ?cos_neg | rewrite !(Rabs_right th Hpos) ].
(* path conditions: bool conjunctions of Rltb atoms -> Props *)
Ltac pc_props H :=
  repeat (apply andb_prop in H; let H1 := fresh "Hpc" in destruct H as [H1 H]);
  try clear H;       (* the trailing [true = true] (an equation nsatz would trip over) *)
  repeat match goal with
  | K : negb _ = true |- _ => apply Bool.negb_true_iff in K
  | K : Rltb _ _ = true |- _ => apply Rltb_true in K
  | K : Rltb _ _ = false |- _ => apply Rltb_false in K
  | K : Rleb _ _ = true |- _ => apply Rleb_true in K
  | K : Rleb _ _ = false |- _ => apply Rleb_false in K
  end.

(* trexp normalises th S to a unit twist and the angle |th|; for unit w that is (sign th) S, and the closed form is
   even in (S, th, s) jointly *)
Lemma screw_cs_abs (S : V6 R) th : th <> 0 ->
  screw_cs Rops (vscale6 Rops (th / Rabs th) S) (Rabs th) (cos (Rabs th)) (sin (Rabs th)) = screw_cs Rops S th (cos th) (sin th).
Proof.
  intros Hth. abs_cases th.
  - replace (th / - th) with (-1) by (field; exact Hth). rewrite screw_neg, !Ropp_involutive. reflexivity.
  - replace (th / th) with 1 by (field; exact Hth). f_equal. lin_ring.
Qed.
Lemma vscale6_vscale6 k l (S : V6 R) : vscale6 Rops k (vscale6 Rops l S) = vscale6 Rops (k * l) S.
Proof. lin_ring. Qed.
