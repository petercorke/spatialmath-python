(* C10 -- MODEL of the list layer of spatialmath (smuserlist.py: SMUserList + the inherited collections.UserList /
   collections.abc.Sequence methods), over element tags (Z), mirroring the code as it is.
   Tied to /repo on every run by props/C10.py (T-seq, three-way: real objects / this model / a Python list).

   source line  (spatialmath/smuserlist.py)                                   model
   311-316  __getitem__(slice): data = [self.data[k] for k in range( *i.indices(len(self)))];   py_slice_indices, collect,
            cls.Empty() if len(data) == 0 else cls(data)                                      construct
   318      __getitem__(int):   cls(data[i])                                   py_getitem
   341-348  __setitem__: type test, len(value) != 1 test, data[i] = value.A     m_single_operand, obj_A, py_setitem
   410-414  append, 472-476 insert: same guards, then list.append / insert     py_insert
   439-441  extend: type test, data.extend(iterable.data)                      py_extend
   505      pop: cls(data.pop(i))                                              py_pop
   190-208  arghandler, list: [] -> data = [] (fix 1105ad0); list of same-class   construct
            objects: data = [x.A for x in arg]
   216-218  copy constructor: data = copy(arg.data)
   100-102  Empty, 134-136 Alloc
   UserList __delitem__/reverse/clear/__len__ act on .data directly;           py_delitem py_delslice py_reverse py_clear
   Sequence.__iter__: i = 0; while True: yield self[i]; i += 1 until IndexError   iter_loop
   spatialvector.py:129-133  SpatialVector.__getitem__: cls.Empty() for an empty slice, else cls(data[i])  (own_slice = false)
   (geom3d.py:358 Plucker and spatialvector.py:556 SpatialInertia keep the bare cls(data[i]); they are not modelled)   *)
From Coq Require Import ZArith List Lia Bool.
From SM Require Import Model.C10_PyList.
Import ListNotations.
Open Scope Z_scope.

(* what is handed to a mutator: an object of the same class holding the values ts (any length), or anything else *)
Inductive operand := Same (ts : list Z) | Other.

Inductive op :=
  | GetItem (i : Z) | GetSlice (a b c : option Z) | Iter | IterRev | Len
  | SetItem (i : Z) (v : operand) | DelItem (i : Z) | DelSlice (a b c : option Z)
  | Append (v : operand) | Extend (v : operand) | Insert (i : Z) (v : operand)
  | Pop (i : Z) | Reverse | Clear
  | CtorIter                 (* x = cls([e for e in x]) : iteration + constructor from a list of objects *)
  | CtorCopy                 (* x = cls(x) *)
  | CtorFrom (ts : list Z)   (* x = cls([one single-valued object per tag]) *)
  | Alloc (n : Z) | Empty.

(* what an operation returns: None, an object of the class holding ts, a sequence of such objects (iteration), an int *)
Inductive out := NoneV | Obj (ts : list Z) | Objs (l : list (list Z)) | Int (z : Z).

(* per-class parameter: whether the class uses SMUserList.__getitem__ (true) or overrides it with cls(data[i]) (false) *)
Record cls := { own_slice : bool }.

(* things that are not element values but end up in .data on the defective paths *)
Definition g_empty : Z := -1.   (* the empty list [] (x.A of an empty object) *)
Definition g_row : Z := -2.     (* anything else that is not an element (the model never produces it) *)
Definition g_nested : Z := -3.  (* a list of arrays (x.A of a multi-valued object) *)

(* x.A / x._A : data[0] if len(data) == 1 else data *)
Definition obj_A (ts : list Z) : Z := match ts with [t] => t | [] => g_empty | _ => g_nested end.

(* [data[k] for k in ks] : each k through ordinary list indexing *)
Fixpoint collect (l : list Z) (ks : list Z) : res (list Z) :=
  match ks with
  | [] => Ok []
  | k :: t => match py_getitem l k with
              | Raise e => Raise e
              | Ok v => match collect l t with Ok vs => Ok (v :: vs) | Raise e => Raise e end
              end
  end.
(* cls(list of arrays) / cls(list of same-class objects): arghandler; an empty list gives an empty object (fix 1105ad0) *)
Definition construct (vs : list Z) : res out := Ok (Obj vs).

Definition m_getslice (C : cls) (st : list Z) (a b c : option Z) : res out :=
  if own_slice C then
    match py_slice_indices (zlen st) a b c with            (* i.indices(len(self)): ValueError for step 0 *)
    | Raise e => Raise e
    | Ok ks => match collect st ks with
               | Raise e => Raise e
               | Ok [] => Ok (Obj [])                        (* cls.Empty() *)
               | Ok vs => construct vs
               end
    end
  else
    (* spatialvector.py:129-133 (after fix 40af48b): Empty() if len(self.data[i]) == 0 else cls(self.data[i]) *)
    match py_getslice st a b c with
    | Raise e => Raise e
    | Ok [] => Ok (Obj [])
    | Ok vs => construct vs
    end.

Fixpoint iter_loop (st : list Z) (fuel : nat) (i : Z) : list (list Z) :=
  match fuel with
  | O => []
  | S f => match py_getitem st i with Ok v => [v] :: iter_loop st f (i + 1) | Raise _ => [] end
  end.
Definition m_iter (st : list Z) : list (list Z) := iter_loop st (S (length st)) 0.
(* Sequence.__reversed__: for i in reversed(range(len(self))): yield self[i] *)
Definition m_reversed (st : list Z) : res (list Z) := collect st (rev (map Z.of_nat (seq 0 (length st)))).

Definition m_single_operand (v : operand) : res Z :=
  match v with
  | Other => Raise ValueError                                       (* not type(self) == type(value) *)
  | Same ts => if negb (zlen ts =? 1) then Raise ValueError else Ok (obj_A ts)   (* len(value) != 1  (fix b1d6482) *)
  end.

Definition m_step (C : cls) (st : list Z) (o : op) : list Z * res out :=
  match o with
  | GetItem i => (st, match py_getitem st i with Ok v => Ok (Obj [v]) | Raise e => Raise e end)
  | GetSlice a b c => (st, m_getslice C st a b c)
  | Iter => (st, Ok (Objs (m_iter st)))
  | IterRev => (st, match m_reversed st with Ok vs => Ok (Objs (map (fun t => [t]) vs)) | Raise e => Raise e end)
  | Len => (st, Ok (Int (zlen st)))
  | SetItem i v => match m_single_operand v with
                   | Raise e => (st, Raise e)
                   | Ok x => match py_setitem st i x with Ok st' => (st', Ok NoneV) | Raise e => (st, Raise e) end
                   end
  | DelItem i => match py_delitem st i with Ok st' => (st', Ok NoneV) | Raise e => (st, Raise e) end
  | DelSlice a b c => match py_delslice st a b c with Ok st' => (st', Ok NoneV) | Raise e => (st, Raise e) end
  | Append v => match m_single_operand v with
                | Raise e => (st, Raise e)
                | Ok x => (st ++ [x], Ok NoneV)
                end
  | Extend v => match v with
                | Other => (st, Raise ValueError)
                | Same ts => (py_extend st ts, Ok NoneV)               (* iterable.data *)
                end
  | Insert i v => match m_single_operand v with
                  | Raise e => (st, Raise e)
                  | Ok x => (py_insert st i x, Ok NoneV)
                  end
  | Pop i => match py_pop st i with Ok (v, st') => (st', Ok (Obj [v])) | Raise e => (st, Raise e) end
  | Reverse => (py_reverse st, Ok NoneV)
  | Clear => (py_clear st, Ok NoneV)
  | CtorIter => match construct (map obj_A (m_iter st)) with      (* data = [x.A for x in arg] *)
                | Ok (Obj vs) => (vs, Ok NoneV)
                | Ok _ => (st, Ok NoneV)
                | Raise e => (st, Raise e)
                end
  | CtorCopy => (st, Ok NoneV)
  | CtorFrom ts => match construct ts with
                   | Ok (Obj vs) => (vs, Ok NoneV)
                   | Ok _ => (st, Ok NoneV)
                   | Raise e => (st, Raise e)
                   end
  | Alloc n => (py_repeat 0 n, Ok NoneV)
  | Empty => ([], Ok NoneV)
  end.

(* SPECIFICATION step: a Python list of the values.
   A mutator that needs one value accepts exactly a single-valued object of the same class; anything else raises
   (ValueError, the documented kind) and changes nothing. *)
Definition s_single_operand (v : operand) : res Z :=
  match v with Same [t] => Ok t | _ => Raise ValueError end.

Definition s_step (st : list Z) (o : op) : list Z * res out :=
  match o with
  | GetItem i => (st, match py_getitem st i with Ok v => Ok (Obj [v]) | Raise e => Raise e end)
  | GetSlice a b c => (st, match py_getslice st a b c with Ok vs => Ok (Obj vs) | Raise e => Raise e end)
  | Iter => (st, Ok (Objs (map (fun t => [t]) st)))
  | IterRev => (st, Ok (Objs (map (fun t => [t]) (rev st))))       (* list(reversed(l)) *)
  | Len => (st, Ok (Int (zlen st)))
  | SetItem i v => match s_single_operand v with
                   | Raise e => (st, Raise e)
                   | Ok x => match py_setitem st i x with Ok st' => (st', Ok NoneV) | Raise e => (st, Raise e) end
                   end
  | DelItem i => match py_delitem st i with Ok st' => (st', Ok NoneV) | Raise e => (st, Raise e) end
  | DelSlice a b c => match py_delslice st a b c with Ok st' => (st', Ok NoneV) | Raise e => (st, Raise e) end
  | Append v => match s_single_operand v with Raise e => (st, Raise e) | Ok x => (st ++ [x], Ok NoneV) end
  | Extend v => match v with Other => (st, Raise ValueError) | Same ts => (py_extend st ts, Ok NoneV) end
  | Insert i v => match s_single_operand v with Raise e => (st, Raise e) | Ok x => (py_insert st i x, Ok NoneV) end
  | Pop i => match py_pop st i with Ok (v, st') => (st', Ok (Obj [v])) | Raise e => (st, Raise e) end
  | Reverse => (py_reverse st, Ok NoneV)
  | Clear => (py_clear st, Ok NoneV)
  | CtorIter => (st, Ok NoneV)
  | CtorCopy => (st, Ok NoneV)
  | CtorFrom ts => (ts, Ok NoneV)
  | Alloc n => (py_repeat 0 n, Ok NoneV)
  | Empty => ([], Ok NoneV)
  end.

(* running a sequence: final state and every output *)
Fixpoint run (step : list Z -> op -> list Z * res out) (st : list Z) (ops : list op) : list Z * list (res out) :=
  match ops with
  | [] => (st, [])
  | o :: r => let '(st', x) := step st o in let '(fin, xs) := run step st' r in (fin, x :: xs)
  end.

Lemma collect_in_range : forall l ks, (forall k, In k ks -> 0 <= k < zlen l) -> collect l ks = Ok (map (znth l) ks).
Proof.
  intros l ks. induction ks as [|k t IH]; intros H; simpl; [reflexivity|].
  unfold py_getitem. rewrite py_index_in_range by (apply H; left; reflexivity).
  rewrite IH by (intros; apply H; right; assumption). reflexivity.
Qed.

(* an adjusted bound lies in [0, len] for a positive step and in [-1, len - 1] for a negative one *)
Lemma adj_bounds : forall len st o dp dn, 0 <= len -> 0 <= dp <= len -> -1 <= dn <= len - 1 ->
  if 0 <? st then 0 <= adj len st o dp dn <= len else -1 <= adj len st o dp dn <= len - 1.
Proof.
  intros len st o dp dn Hl Hp Hn. unfold adj. destruct (Z.ltb_spec 0 st).
  all: destruct o as [i|]; [|lia]; destruct (Z.ltb_spec i 0); cbv zeta.
  all: destruct (Z.ltb_spec (i + len) 0); destruct (Z.leb_spec len i); lia.
Qed.

(* every position selected by slice.indices lies inside the list *)
Lemma slice_indices_in_range : forall len a b c ks, 0 <= len ->
  py_slice_indices len a b c = Ok ks -> forall k, In k ks -> 0 <= k < len.
Proof.
  intros len a b c ks Hl H k Hk. unfold py_slice_indices in H.
  destruct (Z.eqb_spec (step_of c) 0) as [|Hs]; [discriminate|]. inversion H; subst; clear H.
  apply py_range_bounds in Hk; [|exact Hs].
  pose proof (adj_bounds len (step_of c) a 0 (len - 1) Hl) as Ha.
  pose proof (adj_bounds len (step_of c) b len (-1) Hl) as Hb.
  destruct (0 <? step_of c); lia.
Qed.

(* THE slice lemma, full strength: for ALL lists, starts, stops and steps (step 0 included: both raise ValueError) *)
Lemma slice_full : forall C st a b c,
  m_getslice C st a b c = match py_getslice st a b c with Ok vs => Ok (Obj vs) | Raise e => Raise e end.
Proof.
  intros C st a b c. unfold m_getslice. destruct (own_slice C).
  - unfold py_getslice.
    destruct (py_slice_indices (zlen st) a b c) as [ks|e] eqn:E; [|reflexivity].
    rewrite collect_in_range by (intros k Hk; eapply slice_indices_in_range; [apply zlen_nonneg | exact E | exact Hk]).
    destruct (map (znth st) ks); reflexivity.
  - destruct (py_getslice st a b c) as [[|x t]|e]; reflexivity.
Qed.

(* iteration through __getitem__ until IndexError yields exactly the elements, in order, each as a single-valued object *)
Lemma iter_loop_spec : forall suf pre,
  iter_loop (pre ++ suf) (S (length suf)) (zlen pre) = map (fun t => [t]) suf.
Proof.
  induction suf as [|x t IH]; intros pre.
  - simpl. unfold py_getitem, py_index. rewrite app_nil_r.
    rewrite Z.leb_refl, orb_true_r. reflexivity.
  - cbn [iter_loop length map]. unfold py_getitem at 1.
    rewrite py_index_in_range by (rewrite zlen_app; unfold zlen; simpl length; lia).
    unfold znth, zlen. rewrite Nat2Z.id. rewrite nth_middle. f_equal.
    replace (pre ++ x :: t) with ((pre ++ [x]) ++ t) by (rewrite <- app_assoc; reflexivity).
    replace (Z.of_nat (length pre) + 1) with (zlen (pre ++ [x])) by (unfold zlen; rewrite app_length; simpl; lia).
    apply IH.
Qed.

Lemma map_nth_seq : forall l : list Z, map (fun k => nth k l 0) (seq 0 (length l)) = l.
Proof.
  induction l as [|x t IH]; [reflexivity|]. cbn [length seq map nth]. f_equal.
  rewrite <- seq_shift, map_map. exact IH.
Qed.

Lemma m_reversed_spec : forall st, m_reversed st = Ok (rev st).
Proof.
  intros st. unfold m_reversed. rewrite collect_in_range.
  - f_equal. rewrite map_rev, map_map. f_equal.
    rewrite <- (map_nth_seq st) at 2. apply map_ext. intros k. unfold znth. rewrite Nat2Z.id. reflexivity.
  - intros k Hk. apply in_rev in Hk. apply in_map_iff in Hk. destruct Hk as [n [<- Hn]]. apply in_seq in Hn. unfold zlen. lia.
Qed.

Lemma m_iter_spec : forall st, m_iter st = map (fun t => [t]) st.
Proof. intros st. unfold m_iter. apply (iter_loop_spec st []). Qed.

Lemma map_obj_A_single : forall st, map obj_A (map (fun t => [t]) st) = st.
Proof. induction st; simpl; congruence. Qed.

(* wrong-class and multi-valued operands are rejected *)
Definition bad_operand (v : operand) : Prop := match v with Other => True | Same ts => zlen ts <> 1 end.
Lemma bad_single_operand : forall v, bad_operand v -> m_single_operand v = Raise ValueError.
Proof.
  intros [ts|] H; [|reflexivity]. simpl in *. destruct (Z.eqb_spec (zlen ts) 1); [contradiction | reflexivity].
Qed.

Lemma single_operand_agree : forall v, m_single_operand v = s_single_operand v.
Proof.
  intros [[|t [|u r]]|]; try reflexivity. apply bad_single_operand. unfold bad_operand, zlen. cbn [length]. lia.
Qed.

(* per-operation refinement, UNCONDITIONAL: the model step IS the specification step (state, result, error kind) *)
Lemma step_refines : forall C st o, m_step C st o = s_step st o.
Proof.
  intros C st o. destruct o; cbn [m_step s_step]; try reflexivity.
  - (* GetSlice *) rewrite (slice_full C st a b c). reflexivity.
  - rewrite m_iter_spec. reflexivity.
  - rewrite m_reversed_spec. reflexivity.
  - rewrite single_operand_agree. reflexivity.
  - rewrite single_operand_agree. reflexivity.
  - rewrite single_operand_agree. reflexivity.
  - rewrite m_iter_spec, map_obj_A_single. reflexivity.
Qed.

Lemma run_refines : forall C ops st, run (m_step C) st ops = run s_step st ops.
Proof.
  intros C ops. induction ops as [|o r IH]; intros st; [reflexivity|].
  simpl. rewrite (step_refines C st o). destruct (s_step st o) as [st' x]. rewrite (IH st'). reflexivity.
Qed.

(* a failed operation leaves the state unchanged: every operation, every state, no guard *)
Lemma failed_unchanged : forall C st o e, snd (m_step C st o) = Raise e -> fst (m_step C st o) = st.
Proof.
  intros C st o e H. destruct o; cbn [m_step fst snd] in *; try reflexivity; try discriminate.
  - destruct (m_single_operand v); [|reflexivity]. destruct (py_setitem st i a); [discriminate | reflexivity].
  - destruct (py_delitem st i); [discriminate | reflexivity].
  - destruct (py_delslice st a b c); [discriminate | reflexivity].
  - destruct (m_single_operand v); [discriminate | reflexivity].
  - destruct v; [discriminate | reflexivity].
  - destruct (m_single_operand v); [discriminate | reflexivity].
  - destruct (py_pop st i) as [[v st']|]; [discriminate | reflexivity].
Qed.

Definition exn_code (e : exn) : Z := match e with IndexError => 1 | ValueError => 2 | TypeError => 3 | AssertionError => 4 | StopIteration => 5 end.
Definition enc_out (r : res out) : list Z :=
  match r with
  | Ok NoneV => [0]
  | Ok (Obj ts) => 1 :: zlen ts :: ts
  | Ok (Objs l) => 2 :: zlen l :: flat_map (fun ts => zlen ts :: ts) l
  | Ok (Int z) => [3; z]
  | Raise e => [9; exn_code e]
  end.
Definition enc_step (x : list Z * res out) : list Z := enc_out (snd x) ++ zlen (fst x) :: fst x.

(* root cause of a disagreement between model and specification: 9 = none expected.  The model mirrors no known
   defect (slice index arithmetic, construction from an empty list, extend by a single value, an empty object accepted
   as a value: /repo behaves as a list does in all four), so any disagreement is a violation. *)
Definition classify (C : cls) (st : list Z) (o : op) : Z :=
  match o with
  | _ => 9
  end.

(* model and specification applied to the SAME state at every step; the run continues from the specification's state *)
Fixpoint lockstep (C : cls) (st : list Z) (ops : list op) : list (list Z) :=
  match ops with
  | [] => []
  | o :: r => enc_step (m_step C st o) :: enc_step (s_step st o) :: [classify C st o] :: lockstep C (fst (s_step st o)) r
  end.

(* the free-running model (no resynchronisation), for the cross-check of run_refines on guarded sequences *)
Definition enc_run (step : list Z -> op -> list Z * res out) (st : list Z) (ops : list op) : list (list Z) :=
  let '(fin, xs) := run step st ops in (zlen fin :: fin) :: map enc_out xs.

Fixpoint zlist_eqb (a b : list Z) : bool :=
  match a, b with
  | [], [] => true
  | x :: a', y :: b' => (x =? y) && zlist_eqb a' b'
  | _, _ => false
  end.
Definition agree_b (C : cls) (st : list Z) (o : op) : bool :=
  zlist_eqb (enc_step (m_step C st o)) (enc_step (s_step st o)).

Definition iota (n : Z) : list Z := map Z.of_nat (seq 1 (Z.to_nat n)).                 (* [1; ...; n] *)
Definition zrange (lo hi : Z) : list Z := map (fun k => lo + Z.of_nat k) (seq 0 (Z.to_nat (hi - lo + 1))).
Definition grid_bounds : list (option Z) := None :: map Some (zrange (-7) 7).
Definition grid_steps : list (option Z) := [None; Some 1; Some (-1); Some 2; Some (-2); Some 3; Some (-3)].
Definition grid_slices : list (option Z * option Z * option Z) :=
  flat_map (fun a => flat_map (fun b => map (fun c => (a, b, c)) grid_steps) grid_bounds) grid_bounds.
Definition grid_lens : list Z := zrange 0 5.

(* lock-step triples for the whole slice grid / index grid on the list [1..n], in the fixed order above *)
Definition grid_eval_slices (C : cls) (n : Z) : list (list Z) :=
  flat_map (fun '(a, b, c) => lockstep C (iota n) [GetSlice a b c]) grid_slices.
Definition grid_eval_index (C : cls) (n : Z) : list (list Z) :=
  flat_map (fun i => lockstep C (iota n) [GetItem i]) (zrange (-7) 7).
Definition grid_disagreements (C : cls) : nat :=
  length (filter (fun '(n, (a, b, c)) => negb (agree_b C (iota n) (GetSlice a b c)))
                 (flat_map (fun n => map (fun s => (n, s)) grid_slices) grid_lens)).

(* the model and the list agree on every operation (step_refines), so no cell of any grid can disagree *)
Lemma agree_b_true C st o : agree_b C st o = true.
Proof.
  unfold agree_b. rewrite step_refines. induction (enc_step (s_step st o)) as [|x l IH]; cbn; [reflexivity|].
  now rewrite Z.eqb_refl.
Qed.
Lemma grid_disagreements_0 C : grid_disagreements C = 0%nat.
Proof.
  unfold grid_disagreements. induction (flat_map _ grid_lens) as [|[n [[a b] c]] l IH]; cbn; [reflexivity|].
  now rewrite agree_b_true.
Qed.
