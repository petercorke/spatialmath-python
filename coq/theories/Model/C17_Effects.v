(* C17 -- effect programs, the write-root checker and its soundness, WITH the call rule.

   Kind-C model (DESIGN.md section 7 C17, Appendix A.4 extended).  No Reals, no axioms.

   Objects live on a heap and are identified by natural numbers; [next s] is the first identity not yet allocated,
   so "the objects that exist when a call starts" are exactly the identities below [next] of the entry state.
   An effect program abstracts ONE Python function:

     Def x Fresh          x = np.zeros(..) / [] / a + b / ...      a new object is bound to x
     Def x New            x = Cls(..)                             a new object is bound to x, then a constructor of
                                                                   the library runs with self = that object
     Def x (FreshCall f)  x = f(..)   (f a library function)      f runs; x is bound to what f returns
     Def x Other          any other binding                        x is bound to ANY object
     Write x              x[..] = v, x.a = v, x op= v, x.fill(..)  the object bound to x receives ANY content
     MutCall x            x.append(..), super().__init__(..) ...   a self-writing method of the library (or an
                                                                   external mutator) runs with self = x's object
     Ret x                return x

   An execution of a function is ANY finite sequence of statements drawn from its body (so every branch, loop,
   order and early exit is covered), interleaved with "idle" steps: allocations by external code and calls of
   ANY pure function of the program with ANY existing objects as arguments (this is how expression-level calls,
   property reads and dynamic dispatch of non-whitelisted method names are covered).  Calls are real: the callee's
   body is executed (relation [run], indexed by call depth), it is not replaced by a summary.

   Functions are of two kinds, decided by the translator from the method NAME: pure ([fself = false]) and
   self-writers ([fself = true]: constructors, arghandler, the documented list mutators) which may write the
   object bound to their first parameter and nothing else.

   The checker accepts a function when every write root is a local variable all of whose definitions are fresh
   (allocation, constructor call, or call of a library function that is itself claimed -- and re-checked -- to
   return a fresh object), or is [self] in a self-writer.

   Theorem [run_sound]: if every function of the program passes the checker then, for every call depth, every
   function, every argument list and every execution, every object that existed at entry is unmodified at exit
   (except the receiver of a self-writer), and functions in the claimed fresh set return an object allocated
   during the call. *)
From Coq Require Import List Arith Bool Lia PeanoNat.
Import ListNotations.

Definition var := nat.
Definition fname := nat.
Definition oid := nat.

Inductive rhs := Fresh | New | FreshCall (f : fname) | Other.
Inductive stmt := Def (x : var) (r : rhs) | Write (x : var) | MutCall (x : var) | Ret (x : var).

(* parameters are the variables 0 .. nparams-1; in a self-writer, self is variable 0 *)
Record func := mkfunc { nparams : nat; fself : bool; fbody : list stmt }.
Definition program := list func.

Record state := mkstate { env : var -> option oid; heap : oid -> nat; next : oid }.

Definition upd {A} (f : nat -> A) (k : nat) (v : A) : nat -> A := fun j => if Nat.eqb j k then v else f j.
Definition args_ok (args : list oid) (n : oid) : Prop := Forall (fun a => a < n) args.
Definition bind (k : nat) (args : list oid) : var -> option oid := fun x => if x <? k then nth_error args x else None.

(* callee f, argument objects, heap and next before, heap and next after, returned object *)
Definition callrel_t := fname -> list oid -> (oid -> nat) -> oid -> (oid -> nat) -> oid -> oid -> Prop.

Definition is_pure (P : program) (f : fname) : bool :=
  match nth_error P f with Some F => negb (fself F) | None => false end.
Definition rhs_alloc (r : rhs) : bool := match r with Fresh | New => true | _ => false end.

Section Semantics.
  Variable P : program.
  Variable cr : callrel_t.

  Inductive step : state -> stmt -> state -> Prop :=
  | SFresh s x r : rhs_alloc r = true ->
      step s (Def x r) (mkstate (upd (env s) x (Some (next s))) (heap s) (S (next s)))
  | SNew s x g args h' n' r : args_ok args (next s) ->
      cr g (next s :: args) (heap s) (S (next s)) h' n' r ->          (* ANY function as constructor, self = the new object *)
      step s (Def x New) (mkstate (upd (env s) x (Some (next s))) h' n')
  | SFreshCall s x f args h' n' r : args_ok args (next s) ->
      cr f args (heap s) (next s) h' n' r ->
      step s (Def x (FreshCall f)) (mkstate (upd (env s) x (Some r)) h' n')
  | SOther s x o :                                                    (* binds ANY object, or nothing *)
      step s (Def x Other) (mkstate (upd (env s) x o) (heap s) (next s))
  | SWrite s x id c : env s x = Some id ->                            (* stores ANY content *)
      step s (Write x) (mkstate (env s) (upd (heap s) id c) (next s))
  | SWriteUnbound s x : env s x = None -> step s (Write x) s          (* NameError: no effect *)
  | SMutCall s x id g args h' n' r : env s x = Some id -> args_ok (id :: args) (next s) ->
      cr g (id :: args) (heap s) (next s) h' n' r ->                  (* ANY function, receiver = x's object *)
      step s (MutCall x) (mkstate (env s) h' n')
  | SMutExt s x id c : env s x = Some id ->                           (* external mutator, e.g. list.append *)
      step s (MutCall x) (mkstate (env s) (upd (heap s) id c) (next s))
  | SMutUnbound s x : env s x = None -> step s (MutCall x) s
  | SRet s x : step s (Ret x) s.

  (* what can happen between / inside statements without being named by one *)
  Inductive idle : state -> state -> Prop :=
  | IAlloc s n' : next s <= n' -> idle s (mkstate (env s) (heap s) n')
  | ICall s g args h' n' r : is_pure P g = true -> args_ok args (next s) ->
      cr g args (heap s) (next s) h' n' r -> idle s (mkstate (env s) h' n').

  Inductive exec (F : func) : state -> state -> Prop :=
  | ENil s : exec F s s
  | EStmt s1 s2 s3 st : In st (fbody F) -> step s1 st s2 -> exec F s2 s3 -> exec F s1 s3
  | EIdle s1 s2 s3 : idle s1 s2 -> exec F s2 s3 -> exec F s1 s3.
End Semantics.

(* the real call relation: depth-indexed execution of the callee's own body *)
Fixpoint run (P : program) (n : nat) : callrel_t :=
  fun f args h nx h' nx' r =>
    match n with
    | 0 => False
    | S m => exists F s', nth_error P f = Some F /\
               exec P (run P m) F (mkstate (bind (nparams F) args) h nx) s' /\
               heap s' = h' /\ next s' = nx' /\
               exists x, In (Ret x) (fbody F) /\ env s' x = Some r
    end.

Definition memb (f : nat) (l : list nat) : bool := existsb (Nat.eqb f) l.
Definition rhs_fresh (FS : list fname) (r : rhs) : bool :=
  match r with Fresh | New => true | FreshCall f => memb f FS | Other => false end.
Definition def_ok (FS : list fname) (x : var) (st : stmt) : bool :=
  match st with Def y r => negb (Nat.eqb y x) || rhs_fresh FS r | _ => true end.
Definition freshonly (FS : list fname) (F : func) (x : var) : bool :=
  negb (x <? nparams F) && forallb (def_ok FS x) (fbody F).
Definition self_ok (F : func) (x : var) : bool := fself F && Nat.eqb x 0.
Definition stmt_ok (P : program) (FS : list fname) (F : func) (st : stmt) : bool :=
  match st with
  | Write x | MutCall x => freshonly FS F x || self_ok F x
  | Def y r => negb (self_ok F y) &&                         (* self is never rebound in a self-writer *)
               match r with FreshCall g => is_pure P g | _ => true end
  | Ret _ => true
  end.
Definition ret_ok (FS : list fname) (F : func) (st : stmt) : bool :=
  match st with Ret x => freshonly FS F x | _ => true end.
Definition check_fun (P : program) (FS : list fname) (f : fname) (F : func) : bool :=
  forallb (stmt_ok P FS F) (fbody F)
  && (negb (memb f FS) || forallb (ret_ok FS F) (fbody F))
  && (negb (fself F) || (0 <? nparams F)).
Fixpoint check_from (P : program) (FS : list fname) (f : fname) (l : list func) : bool :=
  match l with [] => true | F :: t => check_fun P FS f F && check_from P FS (S f) t end.
Definition check_prog (P : program) (FS : list fname) : bool := check_from P FS 0 P.
(* per-function verdicts, for reporting *)
Fixpoint verdicts_from (P : program) (FS : list fname) (f : fname) (l : list func) : list bool :=
  match l with [] => [] | F :: t => check_fun P FS f F :: verdicts_from P FS (S f) t end.
Definition verdicts (P : program) (FS : list fname) : list bool := verdicts_from P FS 0 P.

Lemma check_from_nth P FS l : forall f0 k F, check_from P FS f0 l = true -> nth_error l k = Some F ->
  check_fun P FS (f0 + k) F = true.
Proof.
  induction l as [|G t IH]; intros f0 k F Hc Hn; [destruct k; discriminate|].
  cbn in Hc. apply andb_true_iff in Hc. destruct Hc as [Hg Ht].
  destruct k as [|k]; cbn in Hn.
  - injection Hn as <-. now rewrite Nat.add_0_r.
  - replace (f0 + S k) with (S f0 + k) by lia. eapply IH; eassumption.
Qed.

Lemma check_prog_nth P FS f F : check_prog P FS = true -> nth_error P f = Some F -> check_fun P FS f F = true.
Proof. intros Hc Hn. exact (check_from_nth P FS P 0 f F Hc Hn). Qed.

Lemma check_from_all P FS l : forall f0,
  (forall k F, nth_error l k = Some F -> check_fun P FS (f0 + k) F = true) -> check_from P FS f0 l = true.
Proof.
  induction l as [|G t IH]; intros f0 H; cbn; [reflexivity|]. apply andb_true_iff. split.
  - rewrite <- (Nat.add_0_r f0). now apply (H 0).
  - apply IH. intros k F Hk. rewrite Nat.add_succ_comm. now apply (H (S k)).
Qed.

Definition spec (P : program) (FS : list fname) (cr : callrel_t) : Prop :=
  forall f args h nx h' nx' r, cr f args h nx h' nx' r -> args_ok args nx ->
    exists F, nth_error P f = Some F /\
      nx <= nx' /\
      (forall id, id < nx -> (fself F = true /\ nth_error args 0 = Some id) \/ h' id = h id) /\
      (In f FS -> nx <= r).

Lemma memb_In f l : memb f l = true <-> In f l.
Proof.
  unfold memb. rewrite existsb_exists. split.
  - intros [x [Hin He]]. apply Nat.eqb_eq in He. now subst.
  - intros H. exists f. split; [assumption|apply Nat.eqb_refl].
Qed.

Lemma check_fun_iff P FS f F : check_fun P FS f F = true <->
  forallb (stmt_ok P FS F) (fbody F) = true /\
  (In f FS -> forallb (ret_ok FS F) (fbody F) = true) /\
  (fself F = true -> 0 <? nparams F = true).
Proof.
  unfold check_fun. rewrite !andb_true_iff, !orb_true_iff, !negb_true_iff, <- memb_In.
  destruct (memb f FS), (fself F); intuition congruence.
Qed.

(* The checker read by rows.  [check_prog] asks of every function index whether it is in the fresh set, and numbers
   are unary; here the functions claimed fresh are looked up in the program instead, which is far less to evaluate
   on a large program. *)
Lemma check_prog_by_parts P FS :
  forallb (fun F => forallb (stmt_ok P FS F) (fbody F) && (negb (fself F) || (0 <? nparams F))) P = true ->
  forallb (fun f => match nth_error P f with Some F => forallb (ret_ok FS F) (fbody F) | None => true end) FS = true ->
  check_prog P FS = true.
Proof.
  rewrite !forallb_forall. intros Hall Hfresh. apply check_from_all. intros f F HF.
  specialize (Hall F (nth_error_In _ _ HF)). apply andb_true_iff in Hall. destruct Hall as [Hst Hself].
  apply check_fun_iff. split; [exact Hst|]. split.
  - intros Hin. specialize (Hfresh f Hin). cbn in Hfresh. now rewrite HF in Hfresh.
  - intros Hs. rewrite Hs in Hself. exact Hself.
Qed.

Lemma args_ok_mono args n m : args_ok args n -> n <= m -> args_ok args m.
Proof. unfold args_ok. intros H Hle. eapply Forall_impl; [|exact H]. cbn. intros; lia. Qed.

Section Soundness.
  Variable P : program.
  Variable FS : list fname.
  Variable cr : callrel_t.
  Hypothesis cr_spec : spec P FS cr.
  Variable F : func.
  Variable f : fname.
  Hypothesis F_ok : check_fun P FS f F = true.
  Variable n0 : oid.                       (* [next] of the entry state *)
  Variable h0 : oid -> nat.                (* heap of the entry state *)
  Variable self : option oid.              (* what parameter 0 is bound to at entry *)

  Definition Inv (s : state) : Prop :=
    n0 <= next s /\
    (forall x id, freshonly FS F x = true -> env s x = Some id -> n0 <= id) /\
    (fself F = true -> env s 0 = self) /\
    (forall id, id < n0 -> (fself F = true /\ self = Some id) \/ heap s id = h0 id).

  Lemma stmts_ok st : In st (fbody F) -> stmt_ok P FS F st = true.
  Proof.
    intros Hin. destruct (proj1 (check_fun_iff _ _ _ _) F_ok) as [H _]. rewrite forallb_forall in H. now apply H.
  Qed.

  Lemma freshonly_def x r : freshonly FS F x = true -> In (Def x r) (fbody F) -> rhs_fresh FS r = true.
  Proof.
    unfold freshonly. intros H Hin. apply andb_true_iff in H. destruct H as [_ H].
    rewrite forallb_forall in H. specialize (H _ Hin). cbn in H. now rewrite Nat.eqb_refl in H.
  Qed.

  Lemma write_root_ok s x id : Inv s -> freshonly FS F x || self_ok F x = true -> env s x = Some id ->
    n0 <= id \/ (fself F = true /\ self = Some id).
  Proof.
    intros (Hn & Hf & Hs & Hh) Hok He. apply orb_true_iff in Hok. destruct Hok as [Hok|Hok].
    - left. eapply Hf; eassumption.
    - right. unfold self_ok in Hok. apply andb_true_iff in Hok. destruct Hok as [Hfs Hx].
      apply Nat.eqb_eq in Hx. subst x. split; [assumption|]. rewrite <- (Hs Hfs). assumption.
  Qed.

  Lemma upd_env_inv s x v h' n' :
    Inv s -> next s <= n' ->
    (freshonly FS F x = true -> exists id, v = Some id /\ n0 <= id) ->
    self_ok F x = false ->
    (forall id, id < n0 -> (fself F = true /\ self = Some id) \/ h' id = h0 id) ->
    Inv (mkstate (upd (env s) x v) h' n').
  Proof.
    intros (Hn & Hf & Hs & Hh) Hle Hv Hself Hh'. repeat split; cbn.
    - lia.
    - intros y id Hy. unfold upd. destruct (Nat.eqb y x) eqn:E.
      + apply Nat.eqb_eq in E. subst y. destruct (Hv Hy) as [id' [-> Hid]]. intros [= <-]. exact Hid.
      + apply Hf. exact Hy.
    - intros Hfs. unfold upd. destruct (Nat.eqb 0 x) eqn:E.
      + apply Nat.eqb_eq in E. subst x. unfold self_ok in Hself. rewrite Hfs in Hself. discriminate.
      + now apply Hs.
    - exact Hh'.
  Qed.

  Lemma write_inv s x id c : Inv s -> freshonly FS F x || self_ok F x = true -> env s x = Some id ->
    Inv (mkstate (env s) (upd (heap s) id c) (next s)).
  Proof.
    intros HI Hok He. pose proof HI as (Hn & Hf & Hs & Hh). repeat split; cbn; try assumption.
    intros j Hj. unfold upd. destruct (Nat.eqb_spec j id) as [->|_]; [|now apply Hh].
    destruct (write_root_ok _ _ _ HI Hok He) as [Hge|Hself]; [lia|now left].
  Qed.

  (* a pure callee leaves every object that existed before the call as it was *)
  Lemma pure_call_frame g args h nx h' nx' r :
    is_pure P g = true -> args_ok args nx -> cr g args h nx h' nx' r ->
    nx <= nx' /\ (forall id, id < nx -> h' id = h id) /\ (In g FS -> nx <= r).
  Proof.
    intros Hpure Ha Hcr. destruct (cr_spec _ _ _ _ _ _ _ Hcr Ha) as (G & HG & Hle & Hun & Hfr).
    unfold is_pure in Hpure. rewrite HG in Hpure. apply negb_true_iff in Hpure.
    split; [exact Hle|]. split; [|exact Hfr].
    intros id Hid. destruct (Hun id Hid) as [[Hx _]|Hx]; [congruence|exact Hx].
  Qed.

  Lemma step_inv s st s' : In st (fbody F) -> Inv s -> step cr s st s' -> Inv s'.
  Proof.
    intros Hin HI Hst. pose proof (stmts_ok st Hin) as Hok.
    pose proof HI as (Hn & Hf & Hs & Hh).
    destruct st as [x r|x|x|x]; cbn in Hok.
    - (* a binding: never of self in a self-writer; the invariant on fresh-only variables comes from [freshonly_def] *)
      apply andb_true_iff in Hok. destruct Hok as [Hso Hpure]. apply negb_true_iff in Hso.
      inversion Hst; subst.
      + (* SFresh *)
        apply upd_env_inv; try assumption; [lia|].
        intros _. exists (next s). split; [reflexivity|lia].
      + (* SNew *)
        assert (args_ok (next s :: args) (S (next s))) as Ha.
        { constructor; [lia|]. eapply args_ok_mono; [eassumption|lia]. }
        destruct (cr_spec _ _ _ _ _ _ _ H4 Ha) as (G & HG & Hle & Hun & _).
        apply upd_env_inv; try assumption; [lia| |].
        * intros _. exists (next s). split; [reflexivity|lia].
        * intros id Hid. destruct (Hun id ltac:(lia)) as [[_ Hx]|Hx].
          -- cbn in Hx. injection Hx as Hx. lia.
          -- rewrite Hx. now apply Hh.
      + (* SFreshCall *)
        destruct (pure_call_frame _ _ _ _ _ _ _ Hpure H2 H4) as (Hle & Hun & Hfr).
        apply upd_env_inv; try assumption.
        * intros Hx. exists r0. split; [reflexivity|].
          pose proof (freshonly_def _ _ Hx Hin) as Hr. cbn in Hr. apply memb_In in Hr.
          specialize (Hfr Hr). lia.
        * intros id Hid. rewrite Hun by lia. now apply Hh.
      + (* SOther *)
        apply upd_env_inv; try assumption; [lia|].
        intros Hx. pose proof (freshonly_def _ _ Hx Hin) as Hr. discriminate.
    - (* Write *) inversion Hst; subst; [now apply write_inv with x | exact HI].
    - (* MutCall *) inversion Hst; subst; [|now apply write_inv with x | exact HI].
      destruct (cr_spec _ _ _ _ _ _ _ H3 H1) as (G & HG & Hle & Hun & _).
      repeat split; cbn; try assumption; [lia|].
      intros j Hj. destruct (Hun j ltac:(lia)) as [[_ Hx]|Hx].
      + cbn in Hx. injection Hx as Hx. subst j.
        destruct (write_root_ok _ _ _ HI Hok H0) as [Hge|Hself]; [lia|now left].
      + rewrite Hx. now apply Hh.
    - (* Ret *) inversion Hst; subst. exact HI.
  Qed.

  Lemma idle_inv s s' : Inv s -> idle P cr s s' -> Inv s'.
  Proof.
    intros HI Hid. pose proof HI as (Hn & Hf & Hs & Hh). inversion Hid; subst.
    - repeat split; cbn; try assumption. lia.
    - destruct (pure_call_frame _ _ _ _ _ _ _ H H0 H1) as (Hle & Hun & _).
      repeat split; cbn; try assumption; [lia|].
      intros j Hj. rewrite Hun by lia. now apply Hh.
  Qed.

  Lemma exec_inv s s' : exec P cr F s s' -> Inv s -> Inv s'.
  Proof.
    intros Hex. induction Hex as [s|s1 s2 s3 st Hin Hst _ IH|s1 s2 s3 Hid _ IH]; intros HI.
    - exact HI.
    - apply IH. eapply step_inv; eassumption.
    - apply IH. eapply idle_inv; eassumption.
  Qed.
End Soundness.

(* one call, assuming the callees meet [spec] *)
Lemma call_sound P FS cr f F args h nx s' :
  spec P FS cr -> check_fun P FS f F = true -> args_ok args nx ->
  exec P cr F (mkstate (bind (nparams F) args) h nx) s' ->
  nx <= next s' /\
  (forall id, id < nx -> (fself F = true /\ nth_error args 0 = Some id) \/ heap s' id = h id) /\
  (In f FS -> forall x r, In (Ret x) (fbody F) -> env s' x = Some r -> nx <= r).
Proof.
  intros Hsp Hck Ha Hex. destruct (proj1 (check_fun_iff _ _ _ _) Hck) as (_ & Hret & Hself).
  assert (Inv FS F nx h (nth_error args 0) (mkstate (bind (nparams F) args) h nx)) as HI.
  { repeat split; cbn.
    - lia.
    - intros x id Hx. unfold freshonly in Hx. apply andb_true_iff in Hx. destruct Hx as [Hx _].
      apply negb_true_iff in Hx. unfold bind. rewrite Hx. discriminate.
    - intros Hfs. unfold bind. now rewrite (Hself Hfs).
    - intros id _. now right. }
  pose proof (exec_inv P FS cr Hsp F f Hck nx h (nth_error args 0) _ _ Hex HI) as (Hn & Hf & _ & Hh).
  split; [exact Hn|]. split; [exact Hh|].
  intros Hfs x r Hx He. apply (Hf x r); [|exact He].
  specialize (Hret Hfs). rewrite forallb_forall in Hret. exact (Hret _ Hx).
Qed.

(* the whole program, real calls, every depth *)
Theorem run_sound P FS : check_prog P FS = true -> forall n, spec P FS (run P n).
Proof.
  intros Hc n. induction n as [|n IH]; intros f args h nx h' nx' r Hrun Ha; cbn in Hrun; [contradiction|].
  destruct Hrun as (F & s' & HF & Hex & <- & <- & x & Hret & He).
  exists F. split; [exact HF|].
  pose proof (check_prog_nth _ _ _ _ Hc HF) as Hck.
  destruct (call_sound P FS (run P n) f F args h nx s' IH Hck Ha Hex) as (H1 & H2 & H3).
  split; [exact H1|]. split; [exact H2|].
  intros Hfs. exact (H3 Hfs x r Hret He).
Qed.

(* the statement of C17 for a pure function: every object existing at entry is unmodified at exit *)
Corollary pure_call_no_mutation P FS n f F args h nx h' nx' r :
  check_prog P FS = true -> nth_error P f = Some F -> fself F = false -> args_ok args nx ->
  run P n f args h nx h' nx' r ->
  forall id, id < nx -> h' id = h id.
Proof.
  intros Hc HF Hp Ha Hrun id Hid.
  destruct (run_sound P FS Hc n _ _ _ _ _ _ _ Hrun Ha) as (G & HG & _ & Hun & _).
  rewrite HF in HG. injection HG as <-.
  destruct (Hun id Hid) as [[Hx _]|Hx]; [congruence|exact Hx].
Qed.

(* ... for a self-writer (constructor / documented mutator): everything but the receiver *)
Corollary selfwriter_call_only_receiver P FS n f F args h nx h' nx' r :
  check_prog P FS = true -> nth_error P f = Some F -> args_ok args nx ->
  run P n f args h nx h' nx' r ->
  forall id, id < nx -> nth_error args 0 <> Some id -> h' id = h id.
Proof.
  intros Hc HF Ha Hrun id Hid Hne.
  destruct (run_sound P FS Hc n _ _ _ _ _ _ _ Hrun Ha) as (G & HG & _ & Hun & _).
  destruct (Hun id Hid) as [[_ Hx]|Hx]; [contradiction|exact Hx].
Qed.

(* ... and functions in the (re-checked) fresh set return an object allocated during the call *)
Corollary fresh_call_returns_new P FS n f args h nx h' nx' r :
  check_prog P FS = true -> In f FS -> args_ok args nx ->
  run P n f args h nx h' nx' r -> nx <= r.
Proof.
  intros Hc Hf Ha Hrun.
  destruct (run_sound P FS Hc n _ _ _ _ _ _ _ Hrun Ha) as (G & _ & _ & _ & Hfr). exact (Hfr Hf).
Qed.

(* the checker does not reject for nothing:
   a pure function with a write whose root is a parameter really has an execution that changes an object
   that existed at entry (used for the _refuted theorems) *)
Definition is_param_write (F : func) (st : stmt) : bool := match st with Write x => x <? nparams F | _ => false end.
Definition is_fresh_def (v : var) (st : stmt) : bool := match st with Def y Fresh => Nat.eqb y v | _ => false end.
Definition is_fresh_ret (F : func) (st : stmt) : bool :=
  match st with Ret v => existsb (is_fresh_def v) (fbody F) | _ => false end.
Definition mutates_param (F : func) : bool :=
  existsb (is_param_write F) (fbody F) && existsb (is_fresh_ret F) (fbody F).

Lemma param_write_mutates P f F :
  nth_error P f = Some F -> mutates_param F = true ->
  forall h, exists args nx h' nx' r,
    args_ok args nx /\ run P 1 f args h nx h' nx' r /\ exists id, id < nx /\ h' id <> h id.
Proof.
  intros HF Hm h. unfold mutates_param in Hm. apply andb_true_iff in Hm. destruct Hm as [Hw Hr].
  apply existsb_exists in Hw. destruct Hw as [sw [Hinw Hw]].
  apply existsb_exists in Hr. destruct Hr as [sr [Hinr Hr]].
  destruct sw as [| p | |]; cbn [is_param_write] in Hw; try discriminate.
  destruct sr as [| | | v]; cbn in Hr; try discriminate.
  apply existsb_exists in Hr. destruct Hr as [sd [Hind Hd]].
  destruct sd as [y rr | | |]; cbn in Hd; try discriminate. destruct rr; try discriminate.
  apply Nat.eqb_eq in Hd. subst y.
  (* every parameter is bound to object 0: the write changes it, then the fresh definition and the return *)
  exists (repeat 0 (nparams F)), 1, (upd h 0 (S (h 0))), 2, 1.
  split. { apply Forall_forall. intros a Ha. apply repeat_spec in Ha. lia. }
  split; [|exists 0; split; [lia|]; unfold upd; cbn; lia].
  cbn. exists F. eexists. split; [exact HF|]. split.
  - eapply EStmt; [exact Hinw | apply (SWrite _ _ p 0 (S (h 0))) |].
    { cbn [env]. unfold bind. rewrite Hw. apply nth_error_repeat. now apply Nat.ltb_lt. }
    eapply EStmt; [exact Hind | apply (SFresh _ _ v Fresh); reflexivity | apply ENil].
  - cbn. split; [reflexivity|]. split; [reflexivity|]. exists v. split; [exact Hinr|].
    unfold upd. now rewrite Nat.eqb_refl.
Qed.

From Coq Require Import String.
Fixpoint find_idx (name : string) (ns : list string) (i : nat) : option nat :=
  match ns with [] => None | n :: t => if String.eqb name n then Some i else find_idx name t (S i) end.
Definition in_names (name : string) (l : list string) : bool := existsb (String.eqb name) l.
(* the program in which the functions named in [ex] are re-classified as self-writers: executions of this program
   never call them implicitly (only as constructor / mutator of a fresh receiver) *)
Fixpoint reclassify (ex : list string) (ns : list string) (P : program) : program :=
  match ns, P with
  | n :: ns', F :: P' => (if in_names n ex then mkfunc (nparams F) true (fbody F) else F) :: reclassify ex ns' P'
  | _, _ => P
  end.
Fixpoint all_ok_but (ex : list string) (ns : list string) (vs : list bool) : bool :=
  match ns, vs with
  | n :: ns', v :: vs' => (v || in_names n ex) && all_ok_but ex ns' vs'
  | [], [] => true
  | _, _ => false
  end.
