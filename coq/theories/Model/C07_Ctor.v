(* C07 (part 2) -- hand-written model of the constructor argument handling of the pose / unit-quaternion / twist
   classes:  SMUserList.arghandler (smuserlist.py:138-234), SMUserList._import (79-83), Twist3/Twist2._import
   (twist.py:351, 1148) and the per-class constructor fall-through (the __init__ methods at pose3d.py:47, 606; pose2d.py:52,
   253; quaternion.py:955; twist.py:315, 1093), with checking enabled.

   Kind B (dynamic-language control logic): no real numbers.  An ndarray argument is abstracted to (shape, tag):
   the tag says how the array relates to the group of the class it is handed to.  Which tags the class-level
   validity test accepts (rot_ok, hom_ok, ...) is NOT a free choice: Props/C07_pred.v (the bridge theorems) proves, over R, that the
   predicate models of C07_Pred.v take exactly these decisions on arrays carrying the tag.
   The model mirrors the code AS IT IS; it is tied to /repo on every run by the exhaustive table run of props/C07.py. *)
From Coq Require Import List Bool Arith.
Import ListNotations.

Inductive cls := cSO2 | cSE2 | cSO3 | cSE3 | cUQ | cTw2 | cTw3.
(* Valid: member of the group / algebra.  NotOrtho: rotation part not orthonormal (unit quaternion: not unit norm),
   defect beyond the 1e-6 band.  Reflect: orthogonal with determinant -1.  BadRow: last row of a homogeneous matrix
   is not (0,..,0,1).  NotAlgebra: 4x4 / 3x3 given to a twist class that is not an augmented skew-symmetric matrix.
   WrongShape: an array of a shape the class has no use for.  AltForm: a documented alternative argument form
   (SO2(vector of angles), SE2(2- or 3-vector), SE3(3-vector), SE3(Nx3 translations), UnitQuaternion(N x 4 array of
   quaternion rows -- including a 4x4 array that is not a valid homogeneous matrix: four rows)) -- not an invalid value.
   ZeroRow: an N x 4 array of quaternion rows one of which has (near-)zero norm, which cannot be normalised. *)
Inductive tag := Valid | NotOrtho | Reflect | BadRow | NotAlgebra | WrongShape | AltForm | ZeroRow.
Inductive shape := Sq (n : nat) | Vec (n : nat) | Rect (r c : nat) | NonArray.   (* NonArray: a list element that is no ndarray *)
Inductive item := Arr (s : shape) (t : tag).
Inductive exc := ValueError | TypeError | IndexError | AssertionError | AttributeError.
Inductive result (A : Type) := Ok (a : A) | Err (e : exc).
Arguments Ok {A} a. Arguments Err {A} e.
(* an element of .data:  Elt: the supplied array itself (or, UnitQuaternion, its renormalisation);  Conv: converted from the
   supplied array (r2q of a matrix, vexa of a twist matrix);  Made: built by the class from an alternative form;
   NoneElt: None;  NormFloat: a float.  Since the fixes f16dbda / 21d6c6d / c16e6a7 the model never produces NoneElt or
   NormFloat; they stay in the vocabulary of the table correspondence so that a regression is reported. *)
Inductive slot := Elt (it : item) | Conv (it : item) | Made | NoneElt | NormFloat.
Inductive argform := Bare (it : item) | Seq (l : list item).   (* Seq: list or tuple *)

Definition ish (it : item) : shape := let '(Arr s _) := it in s.
Definition itag (it : item) : tag := let '(Arr _ t) := it in t.
Definition tag_eqb (a b : tag) : bool :=
  match a, b with
  | Valid, Valid | NotOrtho, NotOrtho | Reflect, Reflect | BadRow, BadRow | NotAlgebra, NotAlgebra
  | WrongShape, WrongShape | AltForm, AltForm | ZeroRow, ZeroRow => true
  | _, _ => false end.

(* ndarray.shape ; [] for a non-array *)
Definition dims (s : shape) : list nat :=
  match s with Sq n => [n; n] | Vec n => [n] | Rect r c => [r; c] | NonArray => [] end.
Fixpoint dims_eqb (a b : list nat) : bool :=
  match a, b with [], [] => true | x :: a', y :: b' => Nat.eqb x y && dims_eqb a' b' | _, _ => false end.
Definition is_array (s : shape) : bool := match s with NonArray => false | _ => true end.
Definition is_sq (s : shape) (n : nat) : bool := dims_eqb (dims s) [n; n].
(* argcheck.isvector(x, n) on an ndarray *)
Definition is_vec (s : shape) (n : nat) : bool :=
  dims_eqb (dims s) [n] || dims_eqb (dims s) [1; n] || dims_eqb (dims s) [n; 1].
(* argcheck.isvector(x) (dim=None) on an ndarray: Some length *)
Definition any_vec (s : shape) : option nat :=
  match dims s with
  | [n] => if 0 <? n then Some n else None
  | [r; c] => if (r =? 1) && (0 <? c) then Some c else if (0 <? r) && (c =? 1) then Some r else None
  | _ => None end.

(* ---- decisions of the class-level validity tests on tagged arrays (justified by the bridge theorems of Props/C07_pred.v) ---- *)
(* base.isR tests det(R) > 0 (fix 8457767): reflections are rejected *)
Definition rot_ok (t : tag) : bool := match t with Valid => true | _ => false end.
Definition hom_ok (t : tag) : bool := match t with Valid => true | _ => false end.
Definition unit_ok (t : tag) : bool := match t with Valid => true | _ => false end.
Definition alg_ok (t : tag) : bool := match t with Valid => true | _ => false end.

(* cls.isvalid(x, check=True) followed by the shape test of _import: is the array taken as an element? *)
Definition accept (c : cls) (it : item) : bool :=
  let '(Arr s t) := it in
  match c with
  | cSO2 => is_sq s 2 && rot_ok t
  | cSO3 => is_sq s 3 && rot_ok t
  | cSE2 => is_sq s 3 && hom_ok t
  | cSE3 => is_sq s 4 && hom_ok t
  | cUQ => dims_eqb (dims s) [4] && unit_ok t
  | cTw3 => dims_eqb (dims s) [6] || (is_sq s 4 && alg_ok t)
  | cTw2 => dims_eqb (dims s) [3] || (is_sq s 3 && alg_ok t)
  end.
(* what is stored for an accepted array *)
Definition stored (c : cls) (it : item) : slot :=
  match c with
  | cTw3 => if is_sq (ish it) 4 then Conv it else Elt it
  | cTw2 => if is_sq (ish it) 3 then Conv it else Elt it
  | _ => Elt it end.
Definition is_pose (c : cls) : bool := match c with cSO2 | cSE2 | cSO3 | cSE3 => true | _ => false end.
Definition is_twist (c : cls) : bool := match c with cTw2 | cTw3 => true | _ => false end.

(* SMUserList._import returns None for a rejected value (pose classes, UnitQuaternion) and the list path of arghandler
   raises ValueError when any element came back None (fix f16dbda); Twist._import raises TypeError itself *)

(* UnitQuaternion(N x 4 array): [base.unit(x) for x in s]; base.unit raises ValueError for a row of (near-)zero norm *)
Definition uq_rows (t : tag) (r : nat) : result (list slot) :=
  if tag_eqb t ZeroRow then Err ValueError else Ok (repeat Made r).

(* ---- constructor fall-through after arghandler returned False for a bare ndarray ---- *)
Definition fallthrough (c : cls) (it : item) : result (list slot) :=
  let '(Arr s t) := it in
  match c with
  | cSO3 => Err ValueError
  | cSO2 =>                                   (* isscalar / isvector(arg): one rotation per angle *)
      match any_vec s with Some n => Ok (repeat Made n) | None => Err ValueError end
  | cSE3 =>                                   (* isvector(x,3) -> transl ; x.shape[1] == 3 -> N translations *)
      if is_vec s 3 then Ok [Made]
      else match dims s with
           | [_] => Err IndexError            (* x.shape[1] on a 1-D array *)
           | [r; 3] => Ok (repeat Made r)
           | _ => Err ValueError end
  | cSE2 =>                                   (* dispatch on len(x): 2 -> transl2(x) (raises ValueError for a matrix, fix c16e6a7), 3 -> trot2(x[2], t=x[:2]) *)
      match dims s with
      | [2] => Ok [Made] | [2; 1] => Ok [Made]
      | [3] => Ok [Made] | [3; _] => Err TypeError
      | _ => Err ValueError end
  | cUQ =>                                    (* isrot -> r2q ; ishom -> r2q(t2r) ; s.shape[1] == 4 -> [unit(x) for x in s] (fix 21d6c6d) *)
      match dims s with
      | [4] => uq_rows t 1                       (* a 4-vector that is not of unit length is normalised, like the list form (fix d0fc1b2) *)
      | [_] => Err ValueError
      | [3; 3] => if rot_ok t then Ok [Conv it] else Err ValueError
      | [4; 4] => if hom_ok t then Ok [Conv it]  (* a valid SE(3) matrix: one quaternion from its rotation block *)
                  else uq_rows t 4               (* any other 4x4 array: four quaternion rows (documented N x 4 form) *)
      | [r; 4] => uq_rows t r                    (* N x 4: the normalised rows *)
      | _ => Err ValueError end
  | cTw2 | cTw3 => Err TypeError              (* not reached: _import raised already *)
  end.

Definition ctor (c : cls) (a : argform) : result (list slot) :=
  match a with
  | Bare it =>
      if accept c it then Ok [stored c it]
      else if is_twist c then Err TypeError else fallthrough c it
  | Seq [] => Ok []                            (* an empty list gives an empty object, as Empty() (fix 1105ad0; it was IndexError: arg[0]) *)
  | Seq l =>                                   (* isinstance(arg[0], ndarray):  data = [self._import(x) for x in arg] *)
      if is_twist c then
        if forallb (accept c) l then Ok (map (stored c) l) else Err TypeError       (* Twist._import raises *)
      else if is_pose c then
        if forallb (accept c) l then Ok (map (stored c) l) else Err ValueError      (* any None -> ValueError *)
      else                                     (* UnitQuaternion: isvalid does x.shape on every element first *)
        if negb (forallb (fun it => is_array (ish it)) l) then Err AttributeError
        else if forallb (accept c) l then Ok (map (stored c) l) else Err ValueError
  end.

(* ---- validity of what an object holds: every element is (derived from) a member of the group ---- *)
Definition tag_valid (t : tag) : bool := match t with Valid | AltForm => true | _ => false end.
Definition valid_slot (x : slot) : bool :=
  match x with Elt it | Conv it => tag_valid (itag it) | Made => true | NoneElt | NormFloat => false end.

(* ---- which (shape, tag) combinations are meaningful for a class (the table of props/C07.py enumerates exactly these) ---- *)
Definition grp_tag (hom : bool) (t : tag) : bool :=
  match t with Valid | NotOrtho | Reflect => true | BadRow => hom | _ => false end.
Definition applicable (c : cls) (it : item) : bool :=
  let '(Arr s t) := it in
  match c with
  | cSO3 => if is_sq s 3 then grp_tag false t else tag_eqb t WrongShape
  | cSO2 => if is_sq s 2 then grp_tag false t
            else match any_vec s with Some _ => tag_eqb t AltForm | None => tag_eqb t WrongShape end
  | cSE3 => if is_sq s 4 then grp_tag true t
            else if is_vec s 3 then tag_eqb t AltForm
            else match dims s with [_; 3] => tag_eqb t AltForm | _ => tag_eqb t WrongShape end
  | cSE2 => if is_sq s 3 then grp_tag true t
            else match dims s with [2] | [2; 1] | [3] => tag_eqb t AltForm | _ => tag_eqb t WrongShape end
  | cUQ => match dims s with
           | [4] => tag_eqb t Valid || tag_eqb t AltForm || tag_eqb t ZeroRow
           | [3; 3] => grp_tag false t
           | [4; 4] => tag_eqb t Valid || tag_eqb t AltForm || tag_eqb t ZeroRow
           | [_; 4] => tag_eqb t AltForm || tag_eqb t ZeroRow
           | _ => tag_eqb t WrongShape end
  | cTw3 => if dims_eqb (dims s) [6] then tag_eqb t Valid
            else if is_sq s 4 then tag_eqb t Valid || tag_eqb t NotAlgebra else tag_eqb t WrongShape
  | cTw2 => if dims_eqb (dims s) [3] then tag_eqb t Valid
            else if is_sq s 3 then tag_eqb t Valid || tag_eqb t NotAlgebra else tag_eqb t WrongShape
  end.
Definition wf (c : cls) (a : argform) : bool :=
  match a with
  | Bare it => is_array (ish it) && applicable c it
  | Seq l => match l with [] => true | h :: _ => is_array (ish h) end && forallb (applicable c) l
  end.

(* ---- summary used by the table correspondence: (0 | exception code, slot codes, all elements valid) ---- *)
Definition exc_code (e : exc) : nat := match e with ValueError => 1 | TypeError => 2 | IndexError => 3 | AssertionError => 4 | AttributeError => 5 end.
Definition slot_code (x : slot) : nat := match x with Elt _ | Conv _ | Made => 0 | NoneElt => 1 | NormFloat => 2 end.
Definition summary (c : cls) (a : argform) : nat * list nat * bool :=
  match ctor c a with
  | Err e => (exc_code e, [], true)
  | Ok d => (0, map slot_code d, forallb valid_slot d) end.


(* =====================================================================================================
   Objects as arguments: the list mutators of SMUserList (smuserlist.py:320 __setitem__, 388 append, 417 extend,
   443 insert) and the constructor given an object (arghandler: isinstance(arg, self.__class__) -> copy of arg.data;
   arg.__class__ in convertfrom -> [converter(arg).A]; then the per-class fall-through).
   An operand is an object of class ocl holding olen valid values of ITS class (or a bare ndarray / list: oArr).
   An element of a receiver is tagged with the class whose group it belongs to; anything else is Junk (the empty list
   that `.A` of an empty object returns, a row of a matrix spread by a slice assignment, a list of arrays).
   ===================================================================================================== *)
Inductive ocls := oSO2 | oSE2 | oSO3 | oSE3 | oQ | oUQ | oTw2 | oTw3 | oArr.
Definition ocls_eqb (a b : ocls) : bool :=
  match a, b with
  | oSO2, oSO2 | oSE2, oSE2 | oSO3, oSO3 | oSE3, oSE3 | oQ, oQ | oUQ, oUQ | oTw2, oTw2 | oTw3, oTw3 | oArr, oArr => true
  | _, _ => false end.
(* type(self) == type(x) *)
Definition exact (r o : ocls) : bool := ocls_eqb r o && negb (ocls_eqb o oArr).
(* isinstance(x, type(self)): SE3 is a subclass of SO3, SE2 of SO2, UnitQuaternion of Quaternion *)
Definition subclass_of (o r : ocls) : bool :=
  exact r o || match o, r with oSE3, oSO3 | oSE2, oSO2 | oUQ, oQ => true | _, _ => false end.
Inductive melt := V (c : ocls) | Junk.
(* is the element a member of the receiver's group?  (a unit quaternion is a quaternion; an SE(3) matrix is NOT a member of SO(3)) *)
Definition member (r : ocls) (e : melt) : bool :=
  match e with V c => exact r c || (ocls_eqb r oQ && ocls_eqb c oUQ) | Junk => false end.
Record operand := Opd { ocl : ocls; olen : nat }.
(* x.A / x._A: the single value, or the LIST of values when len(x) <> 1 *)
Definition opd_A (x : operand) : melt := if olen x =? 1 then V (ocl x) else Junk.
(* number of rows a single value of the class spreads into when a list slice is assigned an ndarray *)
Definition nrows (c : ocls) : nat :=
  match c with oSO2 => 2 | oSE2 | oSO3 | oTw2 => 3 | oSE3 | oQ | oUQ => 4 | oTw3 => 6 | oArr => 0 end.
Inductive mutator :=
| SetInt (pos : nat)          (* x[i] = v, i normalised to a position; pos >= len: IndexError *)
| SetSlice (lo hi : nat)      (* x[lo:hi] = v *)
| Append
| Insert (pos : nat)          (* position already clamped to 0..len *)
| Extend.
Fixpoint replace_nth {A} (l : list A) (n : nat) (x : A) : list A :=
  match l, n with [] , _ => [] | _ :: t, 0 => x :: t | h :: t, S k => h :: replace_nth t k x end.

(* the mutators, parametrised by the type guard g r (class of the operand) *)
Definition mutate (g : ocls -> ocls -> bool) (r : ocls) (d : list melt) (m : mutator) (x : operand) : result (list melt) :=
  if negb (g r (ocl x)) then Err ValueError                       (* can't insert / append different type of object *)
  else match m with
  | Extend => Ok (d ++ repeat (V (ocl x)) (olen x))                (* super().extend(iterable.data) *)
  | _ =>
    if negb (olen x =? 1) then Err ValueError                      (* len(value) != 1 (fix b1d6482; it was len(value) > 1) *)
    else match m with
    | SetInt pos => if pos <? length d then Ok (replace_nth d pos (opd_A x)) else Err IndexError
    | SetSlice lo hi => Err ValueError                             (* a slice index is rejected (fix fcdd4db; list slice assignment
                                                                      iterated value.A and stored the rows of the matrix) *)
    | Append => Ok (d ++ [opd_A x])
    | Insert pos => Ok (firstn pos d ++ [opd_A x] ++ skipn pos d)
    | Extend => Ok d
    end
  end.
(* the code as it is uses the exact-type guard *)
Definition mutate_impl := mutate exact.

(* constructor given an object *)
Definition converts (r o : ocls) : bool := match r, o with oTw3, oSE3 | oTw2, oSE2 => true | _, _ => false end.
(* arg.shape == self.shape: the value shapes of SE3 / SO3 and of SE2 / SO2 differ; UnitQuaternion and Quaternion share (4,) *)
Definition same_shape (o r : ocls) : bool := exact r o || match o, r with oUQ, oQ => true | _, _ => false end.
Definition ctor_obj (r : ocls) (x : operand) : result (list melt) :=
  if subclass_of (ocl x) r && same_shape (ocl x) r                                (* isinstance(arg, self.__class__) and arg.shape == self.shape *)
  then Ok (repeat (V (ocl x)) (olen x))                                          (*   (fix ac96bee): copy.copy(arg.data) *)
  else if converts r (ocl x) then Ok (repeat (V r) (olen x))                      (* list(converter(arg).data) (fix 5c063cb) *)
  else match r with
  | oUQ => match ocl x with
           | oSO3 | oSE3 => Ok (repeat (V oUQ) (olen x))                          (* [r2q(x.R) for x in s] *)
           | _ => if olen x =? 0 then Err IndexError else Err ValueError end      (* s[0] on an empty object *)
  | _ => Err ValueError end.

Definition all_member (r : ocls) (d : list melt) : Prop := Forall (fun e => member r e = true) d.
Definition mut_summary (r : ocls) (n : nat) (m : mutator) (x : operand) : nat * list bool :=
  match mutate_impl r (repeat (V r) n) m x with Err e => (exc_code e, []) | Ok d => (0, map (member r) d) end.
Definition obj_summary (r : ocls) (x : operand) : nat * list bool :=
  match ctor_obj r x with Err e => (exc_code e, []) | Ok d => (0, map (member r) d) end.

(* constructor given a LIST of objects whose first element is of the receiver's exact class (arghandler, list path,
   `type(arg[0]) == type(self)`): every element must be of that class (assert) and hold exactly one value (fix 2eab8b7;
   a multi-valued or empty element was stored as a nested list); then self.data = [x.A for x in arg] *)
Definition ctor_objs (r : ocls) (l : list operand) : result (list melt) :=
  match l with
  | [] => Ok []
  | h :: _ =>
    if negb (exact r (ocl h)) then Err TypeError            (* not this path: outside the model (wf_objs) *)
    else if negb (forallb (fun x => exact r (ocl x)) l) then Err AssertionError
    else if negb (forallb (fun x => olen x =? 1) l) then Err ValueError
    else Ok (map opd_A l)
  end.
Definition objs_summary (r : ocls) (l : list operand) : nat * list bool :=
  match ctor_objs r l with Err e => (exc_code e, []) | Ok d => (0, map (member r) d) end.
