(* C10 -- SPECIFICATION: the semantics of a CPython list, over element tags (Z).
   Index normalisation, slice.indices (PySlice_AdjustIndices + PySlice_AdjustIndices' range), insert clamping,
   pop, del (index and slice), item assignment, reverse, clear, extend.
   Validated on every run against a real Python list (props/C10.py, three-way T-seq).  No Reals, no axioms. *)
From Coq Require Import ZArith List Lia Bool.
Import ListNotations.
Open Scope Z_scope.

Inductive exn := IndexError | ValueError | TypeError | AssertionError | StopIteration.
Inductive res (A : Type) := Ok (a : A) | Raise (e : exn).
Arguments Ok {A}. Arguments Raise {A}.

Definition zlen {A} (l : list A) : Z := Z.of_nat (length l).
Definition znth (l : list Z) (k : Z) : Z := nth (Z.to_nat k) l 0.

(* data[k] for an int k: the position read, or IndexError *)
Definition py_index (len k : Z) : res Z :=
  if (k <? - len) || (len <=? k) then Raise IndexError else Ok (if k <? 0 then k + len else k).

(* range(start, stop, step), step <> 0 *)
Definition range_len (start stop step : Z) : Z :=
  if 0 <? step then (if start <? stop then (stop - start - 1) / step + 1 else 0)
  else (if stop <? start then (start - stop - 1) / (- step) + 1 else 0).
Definition py_range (start stop step : Z) : list Z :=
  map (fun k => start + Z.of_nat k * step) (seq 0 (Z.to_nat (range_len start stop step))).

(* PySlice_AdjustIndices: one bound *)
Definition adj (len step : Z) (o : option Z) (dflt_pos dflt_neg : Z) : Z :=
  match o with
  | None => if 0 <? step then dflt_pos else dflt_neg
  | Some i => if i <? 0 then (let j := i + len in if j <? 0 then (if 0 <? step then 0 else -1) else j)
              else if len <=? i then (if 0 <? step then len else len - 1) else i
  end.
Definition step_of (c : option Z) : Z := match c with None => 1 | Some s => s end.

(* the positions selected by  [start:stop:step]  in a list of length len;  ValueError for step 0 *)
Definition py_slice_indices (len : Z) (start stop step : option Z) : res (list Z) :=
  let st := step_of step in
  if st =? 0 then Raise ValueError else
  Ok (py_range (adj len st start 0 (len - 1)) (adj len st stop len (-1)) st).

Definition py_getitem (l : list Z) (i : Z) : res Z :=
  match py_index (zlen l) i with Ok k => Ok (znth l k) | Raise e => Raise e end.

Definition py_getslice (l : list Z) (a b c : option Z) : res (list Z) :=
  match py_slice_indices (zlen l) a b c with Ok ks => Ok (map (znth l) ks) | Raise e => Raise e end.

Definition py_setitem (l : list Z) (i v : Z) : res (list Z) :=
  match py_index (zlen l) i with
  | Ok k => Ok (firstn (Z.to_nat k) l ++ v :: skipn (S (Z.to_nat k)) l)
  | Raise e => Raise e end.

Definition py_delitem (l : list Z) (i : Z) : res (list Z) :=
  match py_index (zlen l) i with
  | Ok k => Ok (firstn (Z.to_nat k) l ++ skipn (S (Z.to_nat k)) l)
  | Raise e => Raise e end.

(* keep the elements whose position is not selected *)
Fixpoint drop_at (ks : list Z) (pos : Z) (l : list Z) : list Z :=
  match l with
  | [] => []
  | x :: t => if existsb (Z.eqb pos) ks then drop_at ks (pos + 1) t else x :: drop_at ks (pos + 1) t
  end.
Definition py_delslice (l : list Z) (a b c : option Z) : res (list Z) :=
  match py_slice_indices (zlen l) a b c with Ok ks => Ok (drop_at ks 0 l) | Raise e => Raise e end.

(* list.insert: negative index counts from the end, then clamped to [0, len] *)
Definition py_insert_pos (len i : Z) : Z :=
  let j := if i <? 0 then i + len else i in
  if j <? 0 then 0 else if len <? j then len else j.
Definition py_insert (l : list Z) (i v : Z) : list Z :=
  let k := Z.to_nat (py_insert_pos (zlen l) i) in firstn k l ++ v :: skipn k l.

(* list.pop(i): (popped value, remaining list);  IndexError on the empty list or a bad index *)
Definition py_pop (l : list Z) (i : Z) : res (Z * list Z) :=
  match py_index (zlen l) i with
  | Ok k => Ok (znth l k, firstn (Z.to_nat k) l ++ skipn (S (Z.to_nat k)) l)
  | Raise e => Raise e end.

Definition py_extend (l ts : list Z) : list Z := l ++ ts.
Definition py_reverse (l : list Z) : list Z := rev l.
Definition py_clear (l : list Z) : list Z := [].
Definition py_repeat (v n : Z) : list Z := repeat v (Z.to_nat n).   (* [v] * n ; [] for n <= 0 *)

Lemma zlen_nonneg {A} (l : list A) : 0 <= zlen l.
Proof. unfold zlen; lia. Qed.

Lemma zlen_app {A} (a b : list A) : zlen (a ++ b) = zlen a + zlen b.
Proof. unfold zlen; rewrite app_length; lia. Qed.

(* IndexError exactly outside [-len, len) ; otherwise the normalised position is in [0, len) *)
Lemma py_index_cases : forall len k, 0 <= len ->
  (py_index len k = Raise IndexError /\ (k < - len \/ len <= k)) \/
  (exists p, py_index len k = Ok p /\ - len <= k < len /\ 0 <= p < len /\ (p = k \/ p = k + len)).
Proof.
  intros len k Hl. unfold py_index.
  destruct (Z.ltb_spec k (- len)); destruct (Z.leb_spec len k); simpl.
  1-3: left; split; [reflexivity | lia].
  right. eexists. split; [reflexivity|]. destruct (Z.ltb_spec k 0); lia.
Qed.

Lemma py_index_in_range : forall len k, 0 <= k < len -> py_index len k = Ok k.
Proof.
  intros len k H. unfold py_index.
  destruct (Z.ltb_spec k (- len)); [lia|]. destruct (Z.leb_spec len k); [lia|].
  simpl. destruct (Z.ltb_spec k 0); [lia|reflexivity].
Qed.

Lemma range_len_nonneg : forall a b s, 0 <= range_len a b s.
Proof.
  intros a b s. unfold range_len.
  destruct (Z.ltb_spec 0 s).
  - destruct (Z.ltb_spec a b); [|lia]. pose proof (Z.div_pos (b - a - 1) s). lia.
  - destruct (Z.ltb_spec b a); [|lia]. destruct (Z.eq_dec s 0) as [->|Hs].
    + simpl. rewrite Zdiv_0_r. lia.
    + pose proof (Z.div_pos (a - b - 1) (- s)). lia.
Qed.

(* the k-th multiple of the step stays within the distance d = |stop - start| - 1 as long as k <= d / step *)
Lemma steps_within : forall s d k, 0 < s -> 0 <= k <= d / s -> 0 <= k * s <= d.
Proof. intros s d k Hs Hk. pose proof (Z.mul_div_le d s Hs). nia. Qed.

(* every element of a range lies between start (included) and stop (excluded) *)
Lemma py_range_bounds : forall a b s x, s <> 0 -> In x (py_range a b s) ->
  if 0 <? s then a <= x < b else b < x <= a.
Proof.
  intros a b s x Hs Hin. unfold py_range in Hin. apply in_map_iff in Hin. destruct Hin as [k [<- Hk]].
  apply in_seq in Hk. unfold range_len in Hk. destruct (Z.ltb_spec 0 s).
  - destruct (Z.ltb_spec a b); [|simpl in Hk; lia].
    pose proof (steps_within s (b - a - 1) (Z.of_nat k)). lia.
  - destruct (Z.ltb_spec b a); [|simpl in Hk; lia].
    pose proof (steps_within (- s) (a - b - 1) (Z.of_nat k)). lia.
Qed.

Lemma py_range_fwd_nonempty : forall a b s, 0 < s -> a < b -> py_range a b s <> [].
Proof.
  intros a b s Hs Hab. unfold py_range, range_len.
  destruct (Z.ltb_spec 0 s); [|lia]. destruct (Z.ltb_spec a b); [|lia].
  pose proof (Z.div_pos (b - a - 1) s).
  destruct (Z.to_nat ((b - a - 1) / s + 1)) eqn:E; [lia | simpl; discriminate].
Qed.

Lemma py_insert_pos_bounds : forall len i, 0 <= len -> 0 <= py_insert_pos len i <= len.
Proof.
  intros len i H. unfold py_insert_pos. generalize (if i <? 0 then i + len else i). intros j. cbv zeta.
  destruct (Z.ltb_spec j 0); [lia|]. destruct (Z.ltb_spec len j); lia.
Qed.

(* length effects of the mutators (the "length" half of the property, for every list and argument) *)
Lemma len_ins : forall (l : list Z) k v, (k <= length l)%nat -> length (firstn k l ++ v :: skipn k l) = S (length l).
Proof. intros. rewrite app_length, firstn_length. cbn [length]. rewrite skipn_length. lia. Qed.
Lemma len_set : forall (l : list Z) k v, (k < length l)%nat -> length (firstn k l ++ v :: skipn (S k) l) = length l.
Proof. intros. rewrite app_length, firstn_length. cbn [length]. rewrite skipn_length. lia. Qed.
Lemma len_del : forall (l : list Z) k, (k < length l)%nat -> length (firstn k l ++ skipn (S k) l) = (length l - 1)%nat.
Proof. intros. rewrite app_length, firstn_length, skipn_length. lia. Qed.

Lemma py_insert_length : forall l i v, zlen (py_insert l i v) = zlen l + 1.
Proof.
  intros. unfold py_insert.
  pose proof (py_insert_pos_bounds (zlen l) i (zlen_nonneg l)) as Hb.
  unfold zlen in *. rewrite len_ins by lia. lia.
Qed.

(* an accepted index is a position of the list *)
Lemma py_index_pos : forall (l : list Z) i k, py_index (zlen l) i = Ok k -> (Z.to_nat k < length l)%nat.
Proof.
  intros l i k E. destruct (py_index_cases (zlen l) i (zlen_nonneg l)) as [[E' _]|(p & E' & _ & Hp & _)];
    rewrite E in E'; [discriminate|]. injection E' as ->. unfold zlen in Hp. lia.
Qed.

Lemma py_setitem_length : forall l i v l', py_setitem l i v = Ok l' -> zlen l' = zlen l.
Proof.
  intros l i v l' H. unfold py_setitem in H. destruct (py_index (zlen l) i) eqn:E; [|discriminate].
  inversion H; subst. unfold zlen. rewrite len_set by exact (py_index_pos _ _ _ E). reflexivity.
Qed.

Lemma py_delitem_length : forall l i l', py_delitem l i = Ok l' -> zlen l' = zlen l - 1.
Proof.
  intros l i l' H. unfold py_delitem in H. destruct (py_index (zlen l) i) eqn:E; [|discriminate].
  inversion H; subst. pose proof (py_index_pos _ _ _ E). unfold zlen. rewrite len_del; lia.
Qed.

Lemma py_pop_length : forall l i v l', py_pop l i = Ok (v, l') -> zlen l' = zlen l - 1 /\ In v l.
Proof.
  intros l i v l' H. unfold py_pop in H. destruct (py_index (zlen l) i) eqn:E; [|discriminate].
  inversion H; subst. pose proof (py_index_pos _ _ _ E). split.
  - unfold zlen. rewrite len_del; lia.
  - now apply nth_In.
Qed.
