(* C05 -- atan2 / atan / asin facts over Coq's Reals used by the angle-extraction theorems.
   atan2 is defined in Base/RInst.v (not in the standard library). *)
From Coq Require Import Reals Lra Psatz.
From SM Require Import Base.Ops Base.RInst.
Open Scope R_scope.

Lemma hyp_pos x y : 0 < x -> sqrt (1 + (y/x)²) = sqrt (x*x+y*y) / x.
Proof.
  intros Hx. unfold Rsqr.
  replace (1 + y/x*(y/x)) with ((x*x+y*y) / (x*x)) by (field; lra).
  rewrite sqrt_div_alt by nra. rewrite sqrt_square by lra. reflexivity.
Qed.

Lemma hyp_neg x y : x < 0 -> sqrt (1 + (y/x)²) = sqrt (x*x+y*y) / (-x).
Proof.
  intros Hx. replace (y/x) with ((-y)/(-x)) by (field; lra). rewrite hyp_pos by lra.
  f_equal. f_equal. ring.
Qed.

Lemma hyp_gt0 x y : 0 < x*x + y*y -> 0 < sqrt (x*x+y*y).
Proof. intros. apply sqrt_lt_R0; lra. Qed.

Lemma cos_atan2 y x : 0 < x*x + y*y -> cos (atan2 y x) = x / sqrt (x*x+y*y).
Proof.
  intros H. pose proof (hyp_gt0 x y H) as Hs. unfold atan2.
  destruct (Rlt_dec 0 x) as [Hx|Hx].
  - rewrite cos_atan, hyp_pos by assumption. field. lra.
  - destruct (Rlt_dec x 0) as [Hx'|Hx'].
    + destruct (Rle_dec 0 y).
      * rewrite cos_plus, cos_PI, sin_PI, cos_atan, hyp_neg by assumption. field. lra.
      * rewrite cos_minus, cos_PI, sin_PI, cos_atan, hyp_neg by assumption. field. lra.
    + assert (x = 0) by lra. subst x.
      destruct (Rlt_dec 0 y); [rewrite cos_PI2; field; lra|].
      destruct (Rlt_dec y 0); [|exfalso; assert (y = 0) by lra; subst; lra].
      replace (-PI/2) with (-(PI/2)) by field. rewrite cos_neg, cos_PI2. field. lra.
Qed.

Lemma sin_atan2 y x : 0 < x*x + y*y -> sin (atan2 y x) = y / sqrt (x*x+y*y).
Proof.
  intros H. pose proof (hyp_gt0 x y H) as Hs. unfold atan2.
  destruct (Rlt_dec 0 x) as [Hx|Hx].
  - rewrite sin_atan, hyp_pos by assumption. field. lra.
  - destruct (Rlt_dec x 0) as [Hx'|Hx'].
    + destruct (Rle_dec 0 y).
      * rewrite sin_plus, cos_PI, sin_PI, sin_atan, hyp_neg by assumption. field. lra.
      * rewrite sin_minus, cos_PI, sin_PI, sin_atan, hyp_neg by assumption. field. lra.
    + assert (x = 0) by lra. subst x.
      replace (0*0+y*y) with (y*y) in * by ring. rewrite sqrt_sq_abs in *.
      destruct (Rlt_dec 0 y); [rewrite sin_PI2, Rabs_right by lra; field; lra|].
      destruct (Rlt_dec y 0); [|exfalso; assert (y = 0) by lra; subst; lra].
      replace (-PI/2) with (-(PI/2)) by field. rewrite sin_neg, sin_PI2, Rabs_left by lra. field. lra.
Qed.

Lemma atan2_0_0 : atan2 0 0 = 0.
Proof.
  unfold atan2. destruct (Rlt_dec 0 0); [lra|]. reflexivity.
Qed.

(* -PI < atan2 y x <= PI for every argument pair (including (0,0)) *)
Lemma atan2_range y x : - PI < atan2 y x <= PI.
Proof.
  pose proof PI_RGT_0. pose proof (atan_bound (y/x)) as [Hl Hu]. unfold atan2.
  destruct (Rlt_dec 0 x) as [Hx|Hx]; [lra|].
  destruct (Rlt_dec x 0) as [Hx'|Hx'].
  - destruct (Rle_dec 0 y) as [Hy|Hy].
    + assert (y / x <= 0).
      { unfold Rdiv. assert (/ x < 0) by (apply Rinv_lt_0_compat; lra). nra. }
      assert (atan (y/x) <= 0).
      { destruct (Req_dec (y/x) 0) as [->|]; [rewrite atan_0; lra|].
        left. rewrite <- atan_0. apply atan_increasing. lra. }
      lra.
    + assert (0 < y / x).
      { unfold Rdiv. assert (/ x < 0) by (apply Rinv_lt_0_compat; lra). nra. }
      assert (0 < atan (y/x)) by (rewrite <- atan_0; apply atan_increasing; lra).
      lra.
  - destruct (Rlt_dec 0 y); [lra|]. destruct (Rlt_dec y 0); lra.
Qed.

Lemma atan2_abs_le_PI y x : Rabs (atan2 y x) <= PI.
Proof. pose proof (atan2_range y x). apply Rabs_le. lra. Qed.

(* cos/sin of atan as algebraic expressions *)
Lemma cos_atan_alg t : cos (atan t) = 1 / sqrt (1 + t*t).
Proof. rewrite cos_atan. unfold Rsqr. reflexivity. Qed.
Lemma sin_atan_alg t : sin (atan t) = t / sqrt (1 + t*t).
Proof. rewrite sin_atan. unfold Rsqr. reflexivity. Qed.

Lemma atan_abs_lt t : Rabs (atan t) < PI/2.
Proof. pose proof (atan_bound t). apply Rabs_def1; lra. Qed.
Lemma asin_abs_le t : Rabs (asin t) <= PI/2.
Proof. pose proof (asin_bound t). apply Rabs_le; lra. Qed.

(* the non-negative root of s *)
Lemma sqrt_unique c s : 0 <= c -> c*c = s -> sqrt s = c.
Proof. intros Hc <-. apply sqrt_square. assumption. Qed.

(* 1/sqrt(1+(u/c)^2) = c / sqrt(c^2+u^2) for c > 0 *)
Lemma inv_hyp c u : 0 < c -> 1 / sqrt (1 + (u/c)*(u/c)) = c / sqrt (c*c+u*u).
Proof.
  intros Hc. pose proof (hyp_pos c u Hc) as E. unfold Rsqr in E. rewrite E.
  assert (0 < sqrt (c*c+u*u)) by (apply sqrt_lt_R0; nra). field. lra.
Qed.

(* on the unit circle atan2 inverts (cos, sin) *)
Lemma cs_atan2_unit x y : x*x + y*y = 1 -> cos (atan2 y x) = x /\ sin (atan2 y x) = y.
Proof. intros H. rewrite cos_atan2, sin_atan2 by lra. rewrite H, sqrt_1. split; field. Qed.

Lemma atan2_pos_lt y x : 0 < y -> 0 < atan2 y x < PI.
Proof.
  intros Hy. pose proof PI_RGT_0. pose proof (atan_bound (y/x)) as [Hl Hu]. unfold atan2.
  destruct (Rlt_dec 0 x) as [Hx|Hx].
  - assert (0 < y/x) by (apply Rdiv_lt_0_compat; lra).
    assert (0 < atan (y/x)) by (rewrite <- atan_0; apply atan_increasing; lra). lra.
  - destruct (Rlt_dec x 0) as [Hx'|Hx'].
    + destruct (Rle_dec 0 y); [|lra].
      assert (y/x < 0). { unfold Rdiv. assert (/ x < 0) by (apply Rinv_lt_0_compat; lra). nra. }
      assert (atan (y/x) < 0) by (rewrite <- atan_0; apply atan_increasing; lra). lra.
    + destruct (Rlt_dec 0 y); lra.
Qed.

Lemma atan2_nonneg y x : 0 <= y -> 0 < x*x + y*y -> 0 <= atan2 y x.
Proof.
  intros Hy H. destruct (Rle_dec 0 (atan2 y x)) as [|N]; [assumption|exfalso].
  pose proof (atan2_range y x) as [Hl _]. assert (Hs : sin (atan2 y x) < 0) by (apply sin_lt_0_var; lra).
  rewrite sin_atan2 in Hs by exact H. pose proof (hyp_gt0 x y H) as Hq.
  assert (0 <= y / sqrt (x*x + y*y)) by (apply Rmult_le_pos; [lra | left; apply Rinv_0_lt_compat; lra]). lra.
Qed.

Lemma cos_eq_1_zero x : - (2*PI) < x < 2*PI -> cos x = 1 -> x = 0.
Proof.
  intros Hx Hc. pose proof PI_RGT_0.
  assert (Hs : sin (x/2) = 0).
  { replace x with (2*(x/2)) in Hc by field. rewrite cos_2a_sin in Hc. nra. }
  destruct (Rtotal_order (x/2) 0) as [L|[E|G]]; [|lra|].
  - assert (sin (x/2) < 0) by (apply sin_lt_0_var; lra). lra.
  - assert (0 < sin (x/2)) by (apply sin_gt_0; lra). lra.
Qed.

(* atan2 recovers an angle of (-pi, pi] from a positive multiple of (sin, cos) *)
Lemma atan2_scaled k n : 0 < k -> - PI < n <= PI -> atan2 (k * sin n) (k * cos n) = n.
Proof.
  intros Hk Hn. pose proof (sin2_cos2 n) as Hu. unfold Rsqr in Hu.
  assert (Hq : k * cos n * (k * cos n) + k * sin n * (k * sin n) = k * k)
    by (transitivity (k * k * (sin n * sin n + cos n * cos n)); [ring | rewrite Hu; ring]).
  pose proof (atan2_range (k * sin n) (k * cos n)) as Hr.
  assert (atan2 (k * sin n) (k * cos n) - n = 0); [|lra]. apply cos_eq_1_zero; [lra|].
  rewrite cos_minus, cos_atan2, sin_atan2, Hq, sqrt_square by (rewrite ?Hq; nra).
  transitivity (sin n * sin n + cos n * cos n); [field; lra | exact Hu].
Qed.
Lemma atan2_sin_cos th : - PI < th <= PI -> atan2 (sin th) (cos th) = th.
Proof. intros H. rewrite <- (Rmult_1_l (sin th)), <- (Rmult_1_l (cos th)). apply atan2_scaled; lra. Qed.
