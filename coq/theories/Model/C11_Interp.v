(* C11 -- hand-written models of the interpolators, generic over the [ops] record (so the same text is
   proved about over R and, extracted, run on OCaml floats against /repo on every run).

     slerp        spatialmath/base/quaternions.py  slerp(q0, q1, s, shortest=False)
     uq_interp    spatialmath/quaternion.py        UnitQuaternion.interp(s, dest, shortest)  (on the 4-vectors)
     r2q_m        spatialmath/base/quaternions.py  r2q  (only executed: it is the input stage of trinterp)
     trinterp_q   spatialmath/base/transforms3d.py trinterp, SE(3) case, after the two r2q calls
     trinterp_dyn the shape dispatch of trinterp (SO(3) / SE(3) / anything else) as the code has it

   The models mirror the code AS IT IS (frozen tree 4dbd011; r2q as re-conditioned by 1cdf860, constructor by d0fc1b2; ee14c5b: SO(3) case of trinterp without t2r, and 339284c: the last
   branch raises ValueError).  Thresholds are parameters (the regenerated
   constants of gen/Consts_C11.v are plugged in by gen/Traces_C11.v and Props/C11.v). *)
From Coq Require Import ZArith Bool.
From SM Require Import Base.Ops Base.Lin.

Inductive exn := ValueError | AssertionError | TypeError | IndexError.
Inductive res (A : Type) := Ok (a : A) | Err (e : exn).
Arguments Ok {A} a. Arguments Err {A} e.

Section Interp.
Context {T : Type} (O : ops T).
Local Notation "0" := (zero O). Local Notation "1" := (one O).
Local Infix "+" := (add O). Local Infix "-" := (sub O). Local Infix "*" := (mul O).
Local Infix "/" := (div O). Local Notation "- x" := (neg O x).

(* python:  0 <= s <= 1 *)
Definition in01 (s : T) : bool := leb O 0 s && leb O s 1.
(* np.clip(x, -1, 1) *)
Definition clip11 (x : T) : T := if ltb O x (neg O 1) then neg O 1 else if ltb O 1 x then 1 else x.

(* ------------------------------------------------------------------ base.slerp *)
Definition slerp_flip (shortest : bool) (d : T) : bool := shortest && ltb O d 0.
(* q0 after the optional hemisphere flip, the clipped dot product, the angle *)
Definition slerp_q0 (shortest : bool) (q0 q1 : V4 T) : V4 T :=
  if slerp_flip shortest (dot4 O q0 q1) then vneg4 O q0 else q0.
Definition slerp_dot (shortest : bool) (q0 q1 : V4 T) : T :=
  let d := dot4 O q0 q1 in clip11 (if slerp_flip shortest d then - d else d).
Definition slerp_theta (shortest : bool) (q0 q1 : V4 T) : T := acos_ O (slerp_dot shortest q0 q1).
(* ((q0 * s0) + (q1 * s1)) / sin(theta) *)
Definition slerp_general (a b : V4 T) (th s : T) : V4 T :=
  let s0 := sin_ O ((1 - s) * th) in let s1 := sin_ O (s * th) in let d := sin_ O th in
  let '(a0,a1,a2,a3) := a in let '(b0,b1,b2,b3) := b in
  ((a0*s0 + b0*s1)/d, (a1*s0 + b1*s1)/d, (a2*s0 + b2*s1)/d, (a3*s0 + b3*s1)/d).

Definition slerp (k : T) (q0 q1 : V4 T) (s : T) (shortest : bool) : res (V4 T) :=
  if negb (in01 s) then Err ValueError
  else if eqb O s 0 then Ok q0
  else if eqb O s 1 then Ok q1
  else let a := slerp_q0 shortest q0 q1 in
       let th := slerp_theta shortest q0 q1 in
       if ltb O (k * eps O) (abs_ O th) then Ok (slerp_general a q1 th s) else Ok a.

(* ------------------------------------------------------------------ base.unit (called by UnitQuaternion(vector)) *)
Definition qunit_m (ku : T) (q : V4 T) : res (V4 T) :=
  let n := sqrt_ O (dot4 O q q) in
  if ltb O (abs_ O n) (ku * eps O) then Err ValueError
  else let '(a0,a1,a2,a3) := q in Ok (a0/n, a1/n, a2/n, a3/n).

(* UnitQuaternion(v) for a 4-vector v, check=True: arghandler keeps v only if isunitvec(v) (|norm - 1| < kv eps), then
   base.unit normalises it; a vector that fails the test falls through the constructor's branches to
   `s.shape == (4,)`: base.unit as well (fix d0fc1b2; it used to reach `s.shape[1]` on a 1-D array: IndexError) *)
Definition uq_construct (ku kv : T) (q : V4 T) : res (V4 T) :=
  let n := sqrt_ O (dot4 O q q) in
  if ltb O (abs_ O (n - 1)) (kv * eps O) then qunit_m ku q else qunit_m ku q.

(* ------------------------------------------------------------------ UnitQuaternion.interp
   dest = None is the call  uq_interp ku qone self ...  with the roles the code gives them (q1 := eye(), q2 := self);
   the early returns (s == 0 / s == 1) hand back the stored vectors unchanged *)
Definition uq_weights (d th0 s : T) : T * T :=
  let th := th0 * s in
  (cos_ O th - d * sin_ O th / sin_ O th0, sin_ O th / sin_ O th0).
Definition uq_interp (ku kv : T) (q1 q2 : V4 T) (s : T) (shortest : bool) : res (V4 T) :=
  if eqb O s 0 then Ok q1
  else if eqb O s 1 then Ok q2
  else if negb (in01 s) then Err AssertionError
  else let a := slerp_q0 shortest q1 q2 in
       let d := slerp_dot shortest q1 q2 in
       let th0 := acos_ O d in
       if eqb O th0 0 then uq_construct ku kv a
       else let '(w1, w2) := uq_weights d th0 s in
            let '(a0,a1,a2,a3) := a in let '(b0,b1,b2,b3) := q2 in
            uq_construct ku kv (a0*w1 + b0*w2, a1*w1 + b1*w2, a2*w1 + b2*w2, a3*w1 + b3*w2).

(* ------------------------------------------------------------------ base.r2q *)
(* as re-conditioned by fix 1cdf860: for trace > 0 the vector part is the skew part / (4 s) and the scalar part sqrt(1 - v.v);
   otherwise the vector part as before (largest-diagonal row) and the scalar part (skew part . v) / (4 v.v) *)
Definition r2q_m (kr : T) (Rm : M33 T) : V4 T :=
  let '((r00,r01,r02),(r10,r11,r12),(r20,r21,r22)) := Rm in
  let two := 1 + 1 in let four := two + two in
  let pos0 (x : T) := if ltb O 0 x then x else 0 in          (* python max(0, x) *)
  let tr := (r00 + r11) + r22 in
  let qs := sqrt_ O (pos0 (tr + 1)) / two in
  let kx := r21 - r12 in let ky := r02 - r20 in let kz := r10 - r01 in
  if ltb O 0 tr then
    let d := four * qs in
    let vx := kx / d in let vy := ky / d in let vz := kz / d in
    (sqrt_ O (pos0 (1 - ((vx*vx + vy*vy) + vz*vz))), vx, vy, vz)
  else
  let '(kx1, ky1, kz1, addf) :=
    if leb O r11 r00 && leb O r22 r00 then (((r00 - r11) - r22) + 1, r10 + r01, r20 + r02, leb O 0 kx)
    else if leb O r22 r11 then (r10 + r01, ((r11 - r00) - r22) + 1, r21 + r12, leb O 0 ky)
    else (r20 + r02, r21 + r12, ((r22 - r00) - r11) + 1, leb O 0 kz) in
  let '(x, y, z) := if addf then (kx + kx1, ky + ky1, kz + kz1) else (kx - kx1, ky - ky1, kz - kz1) in
  let nm := sqrt_ O ((x*x + y*y) + z*z) in
  if ltb O (abs_ O nm) (kr * eps O) then (1, 0, 0, 0)
  else let f := sqrt_ O (1 - qs*qs) / nm in
       let vx := f*x in let vy := f*y in let vz := f*z in
       (pos0 (((kx*vx + ky*vy) + kz*vz) / (four * ((vx*vx + vy*vy) + vz*vz))), vx, vy, vz).

(* ------------------------------------------------------------------ base.trinterp, SE(3) case after r2q *)
Definition lerp3 (p0 p1 : V3 T) (s : T) : V3 T :=
  let '(a0,a1,a2) := p0 in let '(b0,b1,b2) := p1 in
  (a0*(1 - s) + s*b0, a1*(1 - s) + s*b1, a2*(1 - s) + s*b2).
(* base.q2r is Lin.q2r_ref (the traced tr_q2r equals it up to ring) *)
Definition q2r_m (q : V4 T) : M33 T := q2r_ref O q.

(* start given:   q0 = r2q(t2r(start)), q1 = r2q(t2r(end)), p0 = transl(start), p1 = transl(end) *)
Definition trinterp_q (k : T) (shortest : bool) (q0 q1 : V4 T) (p0 p1 : V3 T) (s : T) : res (M44 T) :=
  if negb (in01 s) then Err ValueError
  else match slerp k q0 q1 s shortest with
       | Err e => Err e
       | Ok qr => Ok (rt2tr3 O (q2r_m qr) (lerp3 p0 p1 s))
       end.
(* start omitted: slerp(eye(), q0, s), pr = s * p0 *)
Definition trinterp_q1 (k : T) (shortest : bool) (q1 : V4 T) (p1 : V3 T) (s : T) : res (M44 T) :=
  if negb (in01 s) then Err ValueError
  else match slerp k (qone O) q1 s shortest with
       | Err e => Err e
       | Ok qr => Ok (rt2tr3 O (q2r_m qr) (let '(b0,b1,b2) := p1 in (s*b0, s*b1, s*b2)))
       end.

(* ------------------------------------------------------------------ the shape dispatch of trinterp, as the code has it *)
Inductive mat := Mat22 (m : M22 T) | Mat33 (m : M33 T) | Mat44 (m : M44 T) | MatOther.
(* base.t2r: 3x3 -> leading 2x2, 4x4 -> leading 3x3, else ValueError *)
Definition t2r_dyn (m : mat) : res mat :=
  match m with
  | Mat33 a => Ok (Mat22 (t2r2 a))
  | Mat44 a => Ok (Mat33 (t2r3 a))
  | _ => Err ValueError
  end.
(* base.r2q: isrot() shape test, else ValueError *)
Definition r2q_dyn (kr : T) (m : mat) : res (V4 T) :=
  match m with Mat33 a => Ok (r2q_m kr a) | _ => Err ValueError end.
Definition bind {A B} (x : res A) (f : A -> res B) : res B := match x with Ok a => f a | Err e => Err e end.
Definition transl_dyn (m : mat) : res (V3 T) := match m with Mat44 a => Ok (transl3 a) | _ => Err ValueError end.

Definition trinterp_dyn (k kr : T) (shortest : bool) (start : option mat) (end_ : mat) (s : T) : res mat :=
  if negb (in01 s) then Err ValueError
  else match end_ with
  | Mat33 _ =>                                   (* SO(3) case: r2q on the 3x3 arguments themselves *)
      match start with
      | None => bind (r2q_dyn kr end_) (fun q0 =>
                bind (slerp k (qone O) q0 s shortest) (fun qr => Ok (Mat33 (q2r_m qr))))
      | Some st => bind (r2q_dyn kr st) (fun q0 => bind (r2q_dyn kr end_) (fun q1 =>
                   bind (slerp k q0 q1 s shortest) (fun qr => Ok (Mat33 (q2r_m qr)))))
      end
  | Mat44 e4 =>
      match start with
      | None => bind (t2r_dyn end_) (fun r => bind (r2q_dyn kr r) (fun q0 =>
                bind (trinterp_q1 k shortest q0 (transl3 e4) s) (fun m => Ok (Mat44 m))))
      | Some st => bind (t2r_dyn st) (fun r0 => bind (r2q_dyn kr r0) (fun q0 =>
                   bind (t2r_dyn end_) (fun r1 => bind (r2q_dyn kr r1) (fun q1 =>
                   bind (transl_dyn st) (fun p0 =>
                   bind (trinterp_q k shortest q0 q1 p0 (transl3 e4) s) (fun m => Ok (Mat44 m)))))))
      end
  | _ => Err ValueError                          (* raise ValueError('Argument must be SO(3) or SE(3)') *)
  end.

(* numeric code of an outcome, for the float correspondence run:
   0 matrix 3x3 / value, 1 matrix 4x4, 2 raises ValueError, 6 raises AssertionError, 7 raises TypeError, 8 raises IndexError,
   5 other matrix  (the harness uses 4 for "an exception object was RETURNED", which the model never produces) *)
Definition exn_code (e : exn) : T :=
  match e with ValueError => of_Z O 2 | AssertionError => of_Z O 6 | TypeError => of_Z O 7 | IndexError => of_Z O 8 end.
Definition res_code {A} (r : res A) : T := match r with Ok _ => of_Z O 0 | Err e => exn_code e end.
Definition outcome_code (r : res mat) : T :=
  match r with
  | Ok (Mat33 _) => of_Z O 0
  | Ok (Mat44 _) => of_Z O 1
  | Ok _ => of_Z O 5
  | Err e => exn_code e
  end.
Definition optres {A} (r : res A) : option A := match r with Ok a => Some a | Err _ => None end.
End Interp.

Arguments Mat22 {T} m. Arguments Mat33 {T} m. Arguments Mat44 {T} m. Arguments MatOther {T}.

Create HintDb c11 discriminated.
#[export] Hint Unfold in01 clip11 slerp_flip slerp_q0 slerp_dot slerp_theta slerp_general slerp qunit_m uq_construct uq_weights uq_interp
  lerp3 q2r_m trinterp_q trinterp_q1 : c11.
