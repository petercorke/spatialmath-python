(* C13 -- the curve theta |-> Ad(exp(theta [S])) for a unit twist S = (v, w), |w| = 1, in Rodrigues form, and the
   proof (Coquelicot: is_derive / auto_derive) that it solves the initial value problem
        A'(theta) = ad(S) A(theta),   A(0) = I_6
   which defines exp(theta ad(S)).  Hand-written reference over R; Props/C13_ode.v proves, on every run, that the
   library's own base.trexp(S, theta) and base.adjoint, traced on symbols, ARE this curve (a ring identity for all
   S, theta), so the statements transfer to the regenerated definitions.
   The curve is differentiated by blocks, Ad = [[R, [p]x R], [0, R]]: R' = K R is the so(3) case of Model/C03_Series.v.
   Not proved here (and nowhere in the standard library / Coquelicot in a form usable for matrices): uniqueness of
   solutions of linear ODE systems, which is what would turn "solves the IVP" into "equals the power series". *)
From Coq Require Import Reals Lia Nsatz.
From Coquelicot Require Import Coquelicot.
From SM Require Import Base.Ops Base.Lin Base.RInst Base.RLin Model.C03_ExpLog Model.C03_Lemmas Model.C03_Ode Model.C03_Series.
Open Scope R_scope.

Definition row6 (M : M66 R) (i : nat) : V6 R :=
  let '(r0,r1,r2,r3,r4,r5) := M in
  match i with 0%nat => r0 | 1%nat => r1 | 2%nat => r2 | 3%nat => r3 | 4%nat => r4 | _ => r5 end.
Definition el6 (v : V6 R) (j : nat) : R :=
  let '(x0,x1,x2,x3,x4,x5) := v in
  match j with 0%nat => x0 | 1%nat => x1 | 2%nat => x2 | 3%nat => x3 | 4%nat => x4 | _ => x5 end.
Definition get66 (M : M66 R) (i j : nat) : R := el6 (row6 M i) j.

Definition tw_v (s : V6 R) : V3 R := let '(v0,v1,v2,_,_,_) := s in (v0,v1,v2).
Definition tw_w (s : V6 R) : V3 R := let '(_,_,_,w0,w1,w2) := s in (w0,w1,w2).

(* Rodrigues: R(th) = I + sin th K + (1 - cos th) K^2,  V(th) = th I + (1 - cos th) K + (th - sin th) K^2,  K = skew w *)
Definition Rth (w : V3 R) (th : R) : M33 R :=
  let K := skew3 Rops w in
  madd33 Rops (madd33 Rops (I33 Rops) (mscale33 Rops (sin th) K)) (mscale33 Rops (1 - cos th) (mmul33 Rops K K)).
Definition Vth (w : V3 R) (th : R) : M33 R :=
  let K := skew3 Rops w in
  madd33 Rops (madd33 Rops (mscale33 Rops th (I33 Rops)) (mscale33 Rops (1 - cos th) K)) (mscale33 Rops (th - sin th) (mmul33 Rops K K)).
Definition exp_curve (s : V6 R) (th : R) : M44 R := rt2tr3 Rops (Rth (tw_w s) th) (mv33 Rops (Vth (tw_w s) th) (tw_v s)).
Definition Ad_ref (X : M44 R) : M66 R :=
  block66 (t2r3 X) (mmul33 Rops (skew3 Rops (transl3 X)) (t2r3 X)) (Z33 Rops) (t2r3 X).
Definition ad_ref (s : V6 R) : M66 R :=
  block66 (skew3 Rops (tw_w s)) (skew3 Rops (tw_v s)) (Z33 Rops) (skew3 Rops (tw_w s)).
Definition Ad_curve (s : V6 R) (th : R) : M66 R := Ad_ref (exp_curve s th).

Lemma Ad_curve_0 (s : V6 R) : Ad_curve s 0 = I66 Rops.
Proof.
  destruct s as [[[[[v0 v1] v2] w0] w1] w2]. unfold Ad_curve, Ad_ref, exp_curve, Rth, Vth, tw_v, tw_w. lin_simpl.
  rewrite sin_0, cos_0. tuple_eq ltac:(ring).
Qed.

(* Ad and ad by blocks:  Ad(exp(theta [S])) = [[R, [p]x R], [0, R]] with R = Rth w theta, p = Vth w theta v,  ad(S) = [[K, [v]x], [0, K]] *)
Lemma Ad_curve_blocks (s : V6 R) th :
  Ad_curve s th = block66 (Rth (tw_w s) th) (mmul33 Rops (skew3 Rops (mv33 Rops (Vth (tw_w s) th) (tw_v s))) (Rth (tw_w s) th))
                          (Z33 Rops) (Rth (tw_w s) th).
Proof. destruct s as [[[[[v0 v1] v2] w0] w1] w2]. reflexivity. Qed.

Lemma ad_mul_blocks (s : V6 R) (A B : M33 R) :
  mmul66 Rops (ad_ref s) (block66 A B (Z33 Rops) A) =
  block66 (mmul33 Rops (skew3 Rops (tw_w s)) A)
          (madd33 Rops (mmul33 Rops (skew3 Rops (tw_w s)) B) (mmul33 Rops (skew3 Rops (tw_v s)) A))
          (Z33 Rops) (mmul33 Rops (skew3 Rops (tw_w s)) A).
Proof. unfold ad_ref, tw_v, tw_w. lin_ring. Qed.

Lemma get66_block66 (A B C D : M33 R) i j :
  get66 (block66 A B C D) i j =
  if (i <? 3)%nat then if (j <? 3)%nat then e33 A i j else e33 B i (j - 3)
  else if (j <? 3)%nat then e33 C (i - 3) j else e33 D (i - 3) (j - 3).
Proof.
  destruct_tuples. destruct i as [|[|[|[|[|i]]]]]; destruct j as [|[|[|[|[|j]]]]]; reflexivity.
Qed.

Lemma e33_Z33 i j : e33 (Z33 Rops) i j = 0.
Proof. destruct i as [|[|i]]; destruct j as [|[|j]]; reflexivity. Qed.

Lemma get66_Ad_curve (s : V6 R) th i j :
  get66 (Ad_curve s th) i j =
  if (i <? 3)%nat then if (j <? 3)%nat then e33 (Rth (tw_w s) th) i j
                       else e33 (mmul33 Rops (skew3 Rops (mv33 Rops (Vth (tw_w s) th) (tw_v s))) (Rth (tw_w s) th)) i (j - 3)
  else if (j <? 3)%nat then e33 (Z33 Rops) (i - 3) j else e33 (Rth (tw_w s) th) (i - 3) (j - 3).
Proof. rewrite Ad_curve_blocks. apply get66_block66. Qed.

Lemma Rth_rodrigues w th : Rth w th = rodrigues_th Rops w th.
Proof. unfold Rth, rodrigues_th. c03_simpl. lin_ring. Qed.

Lemma Rth_ode w th : normsq3 Rops w = 1 -> is_derive_M33 (Rth w) th (mmul33 Rops (skew3 Rops w) (Rth w th)).
Proof.
  intros Hw i j Hi Hj. rewrite Rth_rodrigues.
  apply is_derive_ext with (f := fun t => e33 (rodrigues_th Rops w t) i j); [intro t; rewrite Rth_rodrigues; reflexivity|].
  apply (rodrigues_solves_ode w th Hw); assumption.
Qed.

(* the translation block: ([p]x R)' = [p']x R + [p]x R' with p' = R v = v + w x p and R' = K R, which is K [p]x R + [v]x R
   because [w x p]x = K [p]x - [p]x K *)
Lemma skewV_derive (v w : V3 R) th :
  is_derive_M33 (fun t => skew3 Rops (mv33 Rops (Vth w t) v)) th (skew3 Rops (mv33 Rops (Rth w th) v)).
Proof.
  destruct v as [[v0 v1] v2], w as [[w0 w1] w2]. unfold Rth, Vth. lin_simpl. intros i j _ _.
  destruct i as [|[|i]]; destruct j as [|[|j]]; cbn [e33]; auto_derive; try exact I; ring.
Qed.

Lemma Rth_v (v w : V3 R) th : normsq3 Rops w = 1 ->
  mv33 Rops (Rth w th) v = vadd3 Rops v (cross3 Rops w (mv33 Rops (Vth w th) v)).
Proof.
  destruct v as [[v0 v1] v2], w as [[w0 w1] w2]. unfold Rth, Vth. lin_simpl. generalize (sin th) (cos th). intros sn cs Hw.
  tuple_eq ltac:(nsatz).
Qed.

Lemma skew_cross_mul (v w p : V3 R) (A : M33 R) :
  madd33 Rops (mmul33 Rops (skew3 Rops (vadd3 Rops v (cross3 Rops w p))) A) (mmul33 Rops (skew3 Rops p) (mmul33 Rops (skew3 Rops w) A))
  = madd33 Rops (mmul33 Rops (skew3 Rops w) (mmul33 Rops (skew3 Rops p) A)) (mmul33 Rops (skew3 Rops v) A).
Proof. lin_ring. Qed.

Lemma skewV_R_ode (v w : V3 R) th : normsq3 Rops w = 1 ->
  is_derive_M33 (fun t => mmul33 Rops (skew3 Rops (mv33 Rops (Vth w t) v)) (Rth w t)) th
    (madd33 Rops (mmul33 Rops (skew3 Rops w) (mmul33 Rops (skew3 Rops (mv33 Rops (Vth w th) v)) (Rth w th)))
                 (mmul33 Rops (skew3 Rops v) (Rth w th))).
Proof.
  intros Hw. rewrite <- skew_cross_mul, <- Rth_v by exact Hw.
  apply is_derive_M33_mul; [apply skewV_derive | apply Rth_ode, Hw].
Qed.

(* the only hypothesis used is |w|^2 = 1, through K^3 = -K *)
Lemma Ad_curve_ode (s : V6 R) (th : R) : normsq3 Rops (tw_w s) = 1 ->
  forall i j : nat, (i < 6)%nat -> (j < 6)%nat ->
  is_derive (fun t => get66 (Ad_curve s t) i j) th (get66 (mmul66 Rops (ad_ref s) (Ad_curve s th)) i j).
Proof.
  intros Hw i j Hi Hj.
  pose proof (Rth_ode (tw_w s) th Hw) as HR. pose proof (skewV_R_ode (tw_v s) (tw_w s) th Hw) as HB.
  apply is_derive_ext with (1 := fun t => eq_sym (get66_Ad_curve s t i j)).
  rewrite Ad_curve_blocks, ad_mul_blocks, get66_block66.
  destruct (Nat.ltb_spec i 3), (Nat.ltb_spec j 3).
  - apply HR; assumption.
  - apply HB; lia.
  - rewrite e33_Z33. exact (@is_derive_const R_AbsRing R_NormedModule 0 th).
  - apply HR; lia.
Qed.
