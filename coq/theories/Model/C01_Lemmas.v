(* C01 -- lemmas and tactics shared by the C01 property files (no dependence on generated files): opening a
   membership goal about a trace, products of elementary rotations, square-root handling for the path conditions
   of the concolic traces, Rodrigues' formula on a unit axis, the two-vector frame, normalisation of a quaternion.
   Everything is over Coq's R. *)
From Coq Require Import Reals ZArith Lra Nsatz.
From SM Require Import Base.Ops Base.Lin Base.RInst Base.RLin.
From SM Require Model.C03_ExpLog Model.C03_Lemmas.
Open Scope R_scope.

Ltac conjs := intros; repeat match goal with |- _ /\ _ => split end.

(* A membership goal about a trace, opened down to real arithmetic.  For SE(n) this leaves
   [SO(n) block /\ last row = (0,..,0,1)], the second part closed by reflexivity, i.e. syntactically. *)
Ltac open_tr := intros; destruct_tuples; unfold SE3, SE2; gen_unfold.

(* [member_by H], H : P B, proves P A when A and B agree entry by entry up to ring normalisation *)
Ltac member_by H :=
  match type of H with ?P ?B =>
    match goal with |- P ?A => replace A with B by (lin_simpl; tuple_eq ltac:(ring)); exact H end end.

(* [cs_of a k]: with t the angle built from the variable a (a itself, or its degree scaling) whose cosine occurs in the
   goal, generalise (cos t, sin t) to a pair (c, s) and pass H : c*c + s*s = 1 to k *)
Ltac cs_of a k :=
  match goal with |- context [cos ?t] => match t with context [a] =>
    let H := fresh "Hcs" in generalize (cs_unit t); generalize (cos t) (sin t); intros ? ? H; k H end end.

Ltac se_block := lazymatch goal with |- _ /\ _ => split; [ | reflexivity ] | |- _ => idtac end.
(* A goal SO3 A, SO2 A (or the SE form with that rotation block) whose entries are polynomials in cos, sin of the
   angles built from the named variables.
   [rot1_tr L a]: A is the elementary rotation L (SO3_rotx/y/z, SO2_rot2) at the angle of a;
   [rot3_tr L a M b N c]: A is the product  L(a) M(b) N(c)  of three of them. *)
Ltac rot1_tr L a := open_tr; se_block; cs_of a ltac:(fun H => member_by (L _ _ H)).
Ltac rot3_tr L a M b N c :=
  open_tr; se_block;
  cs_of a ltac:(fun Ha => cs_of b ltac:(fun Hb => cs_of c ltac:(fun Hc =>
    member_by (SO3_mul3 _ _ _ (L _ _ Ha) (M _ _ Hb) (N _ _ Hc))))).

(* rpy2r with (roll, pitch, yaw) = (a0, a1, a2) in the orders 'zyx', 'xyz', 'yxz';  eul2r(phi, theta, psi) *)
Ltac zyx_tr a0 a1 a2 := rot3_tr SO3_rotz a2 SO3_roty a1 SO3_rotx a0.
Ltac xyz_tr a0 a1 a2 := rot3_tr SO3_rotx a2 SO3_roty a1 SO3_rotz a0.
Ltac yxz_tr a0 a1 a2 := rot3_tr SO3_roty a2 SO3_rotx a1 SO3_rotz a0.
Ltac zyz_tr a0 a1 a2 := rot3_tr SO3_rotz a0 SO3_roty a1 SO3_rotz a2.
(* a conjunction over the orders 'zyx', 'xyz', 'yxz' (or their aliases 'vehicle', 'arm', 'camera'), each in radians, then degrees *)
Ltac rpy_orders_tr a0 a1 a2 :=
  conjs; [ zyx_tr a0 a1 a2 | zyx_tr a0 a1 a2 | xyz_tr a0 a1 a2 | xyz_tr a0 a1 a2 | yxz_tr a0 a1 a2 | yxz_tr a0 a1 a2 ].

(* cos/sin of every argument generalised to a pair (c,s) with c*c+s*s=1 *)
Ltac cs_pair t :=
  let H := fresh "Hcs" in pose proof (cs_unit t) as H;
  let c := fresh "c" in let s := fresh "s" in set (c := cos t) in *; set (s := sin t) in *; clearbody c s.
Ltac cs_gen := repeat match goal with
  | |- context [cos ?t] => cs_pair t
  | |- context [sin ?t] => cs_pair t
  end.

(* name the square root n := sqrt X, which the context shows positive; leaves n*n = X, n <> 0, X <> 0, 0 < X *)
Ltac sqrt_intro X n :=
  let H := fresh "Hpos" in assert (H : 0 < sqrt X) by lra;
  let Hs := fresh "Hsq" in let Hn := fresh "Hnz" in let Hx := fresh "Hxz" in let Hp := fresh "Hxp" in
  destruct (sqrt_pos_sq X H) as (Hs & Hn & Hx & Hp); set (n := sqrt X) in *; clearbody n.
Ltac sqrt_name n := match goal with |- context [sqrt ?X] => sqrt_intro X n end.
(* every square root of the goal, then those that occur only in hypotheses *)
Ltac sqrt_all :=
  repeat (let n := fresh "n" in sqrt_name n);
  repeat (let n := fresh "n" in match goal with _ : context [sqrt ?X] |- _ => sqrt_intro X n end).

(* nsatz is disturbed by order / disequality hypotheses and by the [^] that field_simplify_eq introduces *)
Ltac keep_eqs := repeat match goal with H : ?P |- _ =>
  lazymatch P with
  | @eq R _ _ => fail
  | _ => lazymatch type of P with Prop => clear H | _ => fail end
  end end.
Ltac poly_nsatz := cbn [Rpow_def.pow]; keep_eqs; solve [nsatz].

(* name a square root of a quantity the context shows non-negative: n*n = X *)
Ltac sqrt_nonneg n :=
  match goal with |- context [sqrt ?X] =>
    let H := fresh "Hnn" in assert (H : 0 <= X) by lra;
    let Hs := fresh "Hsq" in pose proof (sqrt_sqrt X H) as Hs; set (n := sqrt X) in *; clearbody n end.

(* Rodrigues' formula  I + s K + (1-c) K^2  on an axis u *)
Definition rodrigues_cs (u : V3 R) (c s : R) : M33 R :=
  let '(x,y,z) := u in
  ((1 - (1-c)*(y*y+z*z), (1-c)*x*y - s*z, (1-c)*x*z + s*y),
   ((1-c)*x*y + s*z, 1 - (1-c)*(x*x+z*z), (1-c)*y*z - s*x),
   ((1-c)*x*z - s*y, (1-c)*y*z + s*x, 1 - (1-c)*(x*x+y*y))).

#[export] Hint Unfold rodrigues_cs : smlin.

Lemma rodrigues_cs_matrix u c s :
  rodrigues_cs u c s = madd33 Rops (madd33 Rops (I33 Rops) (mscale33 Rops s (skew3 Rops u)))
                                   (mscale33 Rops (1-c) (mmul33 Rops (skew3 Rops u) (skew3 Rops u))).
Proof. destruct_tuples. unfold rodrigues_cs. lin_simpl. tuple_eq ltac:(ring). Qed.

(* the same matrix as the hand model of C03 *)
Lemma SO3_rodrigues_cs u c s : normsq3 Rops u = 1 -> c*c + s*s = 1 -> SO3 (rodrigues_cs u c s).
Proof.
  intros Hu Hc. replace (rodrigues_cs u c s) with (C03_ExpLog.rodrigues_cs Rops u c s).
  - apply C03_Lemmas.rodrigues_cs_SO3; assumption.
  - unfold C03_ExpLog.rodrigues_cs. lin_ring.
Qed.

(* unit quaternions: polynomial form of  |q| = 1 *)
Definition UnitQ (q : V4 R) : Prop := let '(a,b,c,d) := q in a*a + b*b + c*c + d*d = 1.
Lemma UnitQ_normsq q : UnitQ q <-> qnormsq Rops q = 1.
Proof. destruct_tuples. unfold UnitQ. lin_simpl. tauto. Qed.
Lemma UnitQ_norm q : UnitQ q -> sqrt (qnormsq Rops q) = 1.
Proof. intros H. apply UnitQ_normsq in H. rewrite H. apply sqrt_1. Qed.
(* with m <> 0: if the scaled entries e_i*m have squares summing to m*m, the e_i have squares summing to 1 *)
Lemma UnitQ_of_scaled (e0 e1 e2 e3 m : R) : m <> 0 ->
  (e0*m)*(e0*m) + (e1*m)*(e1*m) + (e2*m)*(e2*m) + (e3*m)*(e3*m) = m * m -> UnitQ (e0, e1, e2, e3).
Proof.
  intros Hm E. unfold UnitQ. apply (Rmult_eq_reg_r (m * m)).
  - rewrite Rmult_1_l. etransitivity; [ | exact E ]. ring.
  - apply Rmult_integral_contrapositive_currified; exact Hm.
Qed.
Lemma unit4_of_sqrt (a b c d n : R) : n * n = a*a + b*b + c*c + d*d -> n <> 0 -> UnitQ (a/n, b/n, c/n, d/n).
Proof. intros H Hn. apply (UnitQ_of_scaled _ _ _ _ n Hn). rewrite H. field. exact Hn. Qed.
Lemma UnitQ_mul p q : UnitQ p -> UnitQ q -> UnitQ (qmul Rops p q).
Proof. rewrite !UnitQ_normsq. apply qmul_unit. Qed.
Lemma UnitQ_conj q : UnitQ q -> UnitQ (qconj Rops q).
Proof. rewrite !UnitQ_normsq. apply qconj_unit. Qed.
Lemma UnitQ_one : UnitQ (qone Rops).
Proof. apply UnitQ_normsq, qone_unit. Qed.
Lemma SO3_of_UnitQ q : UnitQ q -> SO3 (q2r_ref Rops q).
Proof. intros H. apply SO3_q2r. apply UnitQ_normsq. exact H. Qed.

(* frame from two vectors: columns  n/|n|, o'/|o'|, a/|a|  with n = o x a, o' = a x n *)
Definition frame_cols (nv ov av : V3 R) (pn po pa : R) : M33 R :=
  let '(n0,n1,n2) := nv in let '(o0,o1,o2) := ov in let '(a0,a1,a2) := av in
  ((n0/pn, o0/po, a0/pa), (n1/pn, o1/po, a1/pa), (n2/pn, o2/po, a2/pa)).

Lemma SO3_of_tr A : SO3 (mtr33 A) -> SO3 A.
Proof. intros H. apply SO3_tr in H. destruct_tuples. exact H. Qed.

Lemma SO3_frame (o a : V3 R) (pn po pa : R) :
  let nv := cross3 Rops o a in let ov := cross3 Rops a nv in
  0 < pn -> 0 < po -> 0 < pa ->
  pn * pn = normsq3 Rops nv -> po * po = normsq3 Rops ov -> pa * pa = normsq3 Rops a ->
  SO3 (frame_cols nv ov a pn po pa).
Proof.
  intros nv ov Hn Ho Ha En Eo Ea. apply SO3_of_tr.
  assert (Hpo : po = pa * pn).
  { apply sq_eq_nonneg; [ lra | apply Rmult_le_pos; lra | ].
    replace ((pa * pn) * (pa * pn)) with ((pa * pa) * (pn * pn)) by ring. rewrite Eo, En, Ea.
    subst nv ov. lin_ring. }
  subst po. assert (Hpn : pn <> 0) by lra. assert (Hpa : pa <> 0) by lra.
  replace (mtr33 (frame_cols nv ov a pn (pa * pn) pa))
    with (vscale3 Rops (/ pn) nv, cross3 Rops (vscale3 Rops (/ pa) a) (vscale3 Rops (/ pn) nv), vscale3 Rops (/ pa) a).
  - apply SO3_frame_rows; [ apply unit_vscale3; assumption | apply unit_vscale3; assumption | ].
    subst nv. destruct_tuples. lin_simpl. field_simplify_eq; [ring|auto].
  - subst ov nv. destruct_tuples. unfold frame_cols. lin_simpl. tuple_eq ltac:(field; auto).
Qed.
