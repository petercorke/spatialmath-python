(* C20 -- hand-written models for spatialmath/spatialvector.py.

   (1) scalar-generic 6-vector / 6x6 helpers and the REFERENCE matrices the property talks about
       (motion cross-product matrix, force cross-product matrix, adjoint, parallel-axis inertia);
   (2) [spatial_inertia]: a line-by-line model of the `SpatialInertia(m, r, I)` constructor, which cannot be
       traced symbolically (its getmatrix() forces float64).  Tied to /repo on every run by the numeric
       correspondence (extracted to OCaml floats, compared with SpatialInertia(m, r, I).A);
   (3) the dispatch model of the class layer (which operand classes / lengths are accepted, result class,
       exception kind), compared cell by cell with the implementation on every run.

   CONVENTION FOUND IN THE CODE (spatialvector.py, twist.py, base.adjoint): a spatial vector is stored
   LINEAR PART FIRST, (v ; w) for motion and (f ; n) for force -- the same layout as Twist3 -- so that
     crm(v;w) = [[skew w, skew v],[0, skew w]],      Ad(R,t) = [[R, skew(t) R],[0, R]],
     inertia  = [[m 1, m skew(c)^T],[m skew(c), I + m skew(c) skew(c)^T]]      (c: centre of mass, I about it). *)
From Coq Require Import ZArith List Bool Arith.
From SM Require Import Base.Ops Base.Lin.
Import ListNotations.

Section C20.
Context {T : Type} (O : ops T).
Local Notation "0" := (zero O). Local Notation "1" := (one O).
Local Infix "+" := (add O). Local Infix "-" := (sub O). Local Infix "*" := (mul O).
Local Notation "- x" := (neg O x).

Definition vadd6 (a b : V6 T) : V6 T :=
  let '(a0,a1,a2,a3,a4,a5) := a in let '(b0,b1,b2,b3,b4,b5) := b in (a0+b0, a1+b1, a2+b2, a3+b3, a4+b4, a5+b5).
Definition vsub6 (a b : V6 T) : V6 T :=
  let '(a0,a1,a2,a3,a4,a5) := a in let '(b0,b1,b2,b3,b4,b5) := b in (a0-b0, a1-b1, a2-b2, a3-b3, a4-b4, a5-b5).
Definition vneg6 (a : V6 T) : V6 T := let '(a0,a1,a2,a3,a4,a5) := a in (-a0, -a1, -a2, -a3, -a4, -a5).
Definition vscale6 (k : T) (a : V6 T) : V6 T := let '(a0,a1,a2,a3,a4,a5) := a in (k*a0, k*a1, k*a2, k*a3, k*a4, k*a5).
Definition lin6 (a : V6 T) : V3 T := let '(a0,a1,a2,_,_,_) := a in (a0,a1,a2).   (* first three: linear part *)
Definition ang6 (a : V6 T) : V3 T := let '(_,_,_,a3,a4,a5) := a in (a3,a4,a5).   (* last three: angular part *)
Definition madd66 (A B : M66 T) : M66 T :=
  let '(a0,a1,a2,a3,a4,a5) := A in let '(b0,b1,b2,b3,b4,b5) := B in
  (vadd6 a0 b0, vadd6 a1 b1, vadd6 a2 b2, vadd6 a3 b3, vadd6 a4 b4, vadd6 a5 b5).
Definition mneg66 (A : M66 T) : M66 T :=
  let '(a0,a1,a2,a3,a4,a5) := A in (vneg6 a0, vneg6 a1, vneg6 a2, vneg6 a3, vneg6 a4, vneg6 a5).
Definition mneg33 (A : M33 T) : M33 T := let '(a0,a1,a2) := A in (vneg3 O a0, vneg3 O a1, vneg3 O a2).

(* the matrices of the property statement *)
Definition crm_ref (v : V6 T) : M66 T :=                      (* [skew(w) skew(v); 0 skew(w)] *)
  block66 (skew3 O (ang6 v)) (skew3 O (lin6 v)) (Z33 O) (skew3 O (ang6 v)).
Definition crf_ref (v : V6 T) : M66 T := mneg66 (mtr66 (crm_ref v)).     (* its negative transpose *)
Definition Ad_ref (X : M44 T) : M66 T :=                      (* [R, skew(t) R; 0, R] *)
  let R := t2r3 X in block66 R (mmul33 O (skew3 O (transl3 X)) R) (Z33 O) R.
Definition parallel_axis_ref (m : T) (c : V3 T) (I : M33 T) : M66 T :=
  block66 (mscale33 O m (I33 O)) (mneg33 (mscale33 O m (skew3 O c))) (mscale33 O m (skew3 O c))
          (madd33 O I (mscale33 O m (msub33 O (mscale33 O (normsq3 O c) (I33 O)) (outer3 O c c)))).

(* model of the constructor, spatialvector.py:519-524:
       C = base.skew(r)
       I = np.block([[m * np.eye(3), m * C.T], [m * C, I + m * C @ C.T]])        (m * C @ C.T is (m*C) @ C.T) *)
Definition spatial_inertia (m : T) (r : V3 T) (I : M33 T) : M66 T :=
  let C := skew3 O r in
  block66 (mscale33 O m (I33 O)) (mscale33 O m (mtr33 C))
          (mscale33 O m C)       (madd33 O I (mmul33 O (mscale33 O m C) (mtr33 C))).

(* model of SpatialInertia.__add__ (both operands inertias), spatialvector.py:591:
       return SpatialInertia(left.A + right.A)
   the 6x6 constructor path forces float64, so this does not trace either; tied by the numeric correspondence *)
Definition inertia_add (A B : M66 T) : M66 T := madd66 A B.
End C20.

#[export] Hint Unfold vadd6 vsub6 vneg6 vscale6 lin6 ang6 madd66 mneg66 mneg33 crm_ref crf_ref Ad_ref
  parallel_axis_ref spatial_inertia inertia_add : smlin.

(* Dispatch model of the class layer (no arithmetic).  Mirrors the code AS IT IS (HEAD 5371e50):
     SpatialVector.__add__/__sub__ : `type(left) != type(right)` -> TypeError, then `len` differ -> ValueError,
                                     then left.__class__([...]) (an empty list gives an empty object since 1105ad0)
     SpatialVector.__neg__         : same constructor
     SpatialVector(obj)            : copy, `list(value.data)` (df7016a)
     SpatialM6.cross               : only SpatialM6 has the method (AttributeError on force classes);
                                     isinstance(other, SpatialM6) -> SpatialAcceleration([vcross @ x for x in other.data])   (66a8f3b),
                                     isinstance(other, SpatialF6) -> SpatialForce([...]), else TypeError      (0da5cb1: element-wise)
     SpatialInertia.__mul__        : SpatialAcceleration -> SpatialForce, SpatialVelocity -> SpatialMomentum, else TypeError;
                                     element-wise on the right operand
     SpatialVector.__rmul__ (SE3)  : right.__class__([X @ x for x in right.data])
     SpatialInertia.__add__        : not a SpatialInertia -> TypeError; otherwise SpatialInertia(left.A + right.A)
   n is the number of values of the (right) operand. *)
Inductive svc := Vel | Acc | Frc | Mom.
Inductive rcls := SV (c : svc) | NotSV.         (* right operand: a spatial-vector class, or anything else *)
Inductive exn := TypeError | ValueError | AttributeError | IndexError.
Inductive outcome := Value (c : svc) (n : nat) | Raise (e : exn).

Definition svc_eqb (a b : svc) : bool :=
  match a, b with Vel, Vel | Acc, Acc | Frc, Frc | Mom, Mom => true | _, _ => false end.
Lemma svc_eqb_spec a b : svc_eqb a b = true <-> a = b.
Proof. destruct a, b; simpl; split; intros H; try reflexivity; discriminate. Qed.
Lemma svc_eqb_refl a : svc_eqb a a = true.
Proof. now apply svc_eqb_spec. Qed.
Definition is_motion (c : svc) : bool := match c with Vel | Acc => true | _ => false end.

Definition construct (c : svc) (n : nat) : outcome := Value c n.

Definition addsub_model (l : svc) (nl : nat) (r : rcls) (nr : nat) : outcome :=
  match r with
  | NotSV => Raise TypeError
  | SV c => if svc_eqb l c then (if Nat.eqb nl nr then construct l nl else Raise ValueError) else Raise TypeError
  end.
Definition neg_model (l : svc) (n : nat) : outcome := construct l n.
(* x += y / x -= y: SMUserList.__iadd__ is `return self + other` (/repo 5371e50); there is no __isub__, so Python evaluates x - y *)
Definition inplace_model (l : svc) (nl : nat) (r : rcls) (nr : nat) : outcome := addsub_model l nl r nr.
Definition copy_model (l : svc) (n : nat) : outcome := construct l n.

(* left operand single-valued, right operand with n values *)
Definition cross_model (l : svc) (r : rcls) (n : nat) : outcome :=
  match l with
  | Frc | Mom => Raise AttributeError
  | Vel | Acc => match r with
                 | SV Vel | SV Acc => construct Acc n
                 | SV Frc | SV Mom => construct Frc n
                 | NotSV => Raise TypeError
                 end
  end.
Definition imul_model (r : rcls) (n : nat) : outcome :=
  match r with SV Acc => construct Frc n | SV Vel => construct Mom n | _ => Raise TypeError end.
Definition se3mul_model (c : svc) (n : nat) : outcome := construct c n.

Inductive ioutcome := ISum | IRaise (e : exn).
Definition iadd_model (right_is_inertia : bool) : ioutcome :=
  if right_is_inertia then ISum else IRaise TypeError.

(* What the property asks for ("expected table"): None = rejected, Some (class, length) = accepted. *)
Definition addsub_expected (l : svc) (nl : nat) (r : rcls) (nr : nat) : option (svc * nat) :=
  match r with SV c => if svc_eqb l c && Nat.eqb nl nr then Some (l, nl) else None | NotSV => None end.
Definition cross_expected (l : svc) (r : rcls) (n : nat) : option (svc * nat) :=
  (* motion x motion is a motion vector, motion x* force a force vector, one per value of the right operand;
     everything else is rejected.  The class of motion x motion is the one the library documents (SpatialAcceleration). *)
  if is_motion l then match r with SV Vel | SV Acc => Some (Acc, n) | SV Frc | SV Mom => Some (Frc, n) | NotSV => None end
  else None.
Definition imul_expected (r : rcls) (n : nat) : option (svc * nat) :=
  match r with SV Acc => Some (Frc, n) | SV Vel => Some (Mom, n) | _ => None end.
Definition iadd_expected (right_is_inertia : bool) : ioutcome := if right_is_inertia then ISum else IRaise TypeError.

Definition agrees (o : outcome) (e : option (svc * nat)) : bool :=
  match o, e with
  | Value c n, Some (c', n') => svc_eqb c c' && Nat.eqb n n'
  | Raise _, None => true
  | _, _ => false
  end.

Definition all_svc : list svc := [Vel; Acc; Frc; Mom].
Definition all_rcls : list rcls := [SV Vel; SV Acc; SV Frc; SV Mom; NotSV].
Definition lens : list nat := [0; 1; 2; 3; 6]%nat.
Definition addsub_cells : list (svc * nat * rcls * nat) :=
  flat_map (fun l => flat_map (fun nl => flat_map (fun r => map (fun nr => (l, nl, r, nr)) lens) all_rcls) lens) all_svc.
Definition cross_cells : list (svc * rcls * nat) :=
  flat_map (fun l => flat_map (fun r => map (fun n => (l, r, n)) lens) all_rcls) all_svc.

(* History model: a spatial-vector object is its CURRENT list of values and nothing else (no cache, no hidden field).
   The list interface (SMUserList / UserList: x[k] = v, append, extend, insert, pop, del, reverse, clear) changes the list;
   every product is a function of the current list only.  Indices are the in-range non-negative ones (negative /
   out-of-range index arithmetic is the subject of the list property, not of this one): anything else is None = not modelled.
   [step]/[run] are polymorphic in the element type so that the same text is evaluated on integer tags (vm_compute) and
   compared with the implementation's value list after each history, on every run. *)
Section Hist.
Context {A : Type}.
Inductive mut :=
  | MSet (k : nat) (v : A) | MAppend (v : A) | MExtend (l : list A) | MInsert (k : nat) (v : A)
  | MPop (k : nat) | MDel (k : nat) | MReverse | MClear.

Definition step (s : list A) (m : mut) : option (list A) :=
  match m with
  | MSet k v => if Nat.ltb k (length s) then Some (firstn k s ++ v :: skipn (S k) s) else None
  | MAppend v => Some (s ++ [v])
  | MExtend l => Some (s ++ l)
  | MInsert k v => if Nat.leb k (length s) then Some (firstn k s ++ v :: skipn k s) else None
  | MPop k | MDel k => if Nat.ltb k (length s) then Some (firstn k s ++ skipn (S k) s) else None
  | MReverse => Some (rev s)
  | MClear => Some []
  end.
Fixpoint run (s : list A) (h : list mut) : option (list A) :=
  match h with [] => Some s | m :: h' => match step s m with Some s' => run s' h' | None => None end end.
End Hist.
Arguments mut A : clear implicits.

Section HistObs.
Context {T : Type} (O : ops T).
(* products of an object whose current value list is s *)
Definition obs_cross_left (s : list (V6 T)) (m : V6 T) : option (V6 T) :=       (* s.cross(m): the left operand must hold one value *)
  match s with [v] => Some (mv66 O (crm_ref O v) m) | _ => None end.
Definition obs_crf_left (s : list (V6 T)) (f : V6 T) : option (V6 T) :=
  match s with [v] => Some (mv66 O (crf_ref O v) f) | _ => None end.
Definition obs_apply (M : M66 T) (s : list (V6 T)) : list (V6 T) := map (mv66 O M) s.      (* SE3 * s, v.cross(s), inertia * s *)
Definition obs_neg (s : list (V6 T)) : list (V6 T) := map (vneg6 O) s.
Fixpoint zip_with (f : V6 T -> V6 T -> V6 T) (s t : list (V6 T)) : list (V6 T) :=
  match s, t with a :: s', b :: t' => f a b :: zip_with f s' t' | _, _ => [] end.
Definition obs_addsub (f : V6 T -> V6 T -> V6 T) (s t : list (V6 T)) : option (list (V6 T)) :=
  if Nat.eqb (length s) (length t) then Some (zip_with f s t) else None.
End HistObs.
