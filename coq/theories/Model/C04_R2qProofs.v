(* Proofs about the hand-written r2q model (Model/C04_R2q.v, the code after /repo 1cdf860):
   for EVERY R in SO(3):  q2r (r2q R) = R,  |r2q R| = 1,  scalar part >= 0.
   Every vector the model normalises is a row, or a sum or difference of two rows, of Shepperd's matrix (Model/C04_R2qCore.v):
   - trace > 0: v = k/(4 qs), s = sqrt(1 - v.v)  (lemma r2q_pos_core);
   - trace <= 0: the three "largest diagonal" branches x both signs (lemma r2q_kv_rank1); the scalar part k.v/(4 v.v) equals
     qs because the skew part of q2r(s,v) is 4 s v; the eye() exit is not reachable for a rotation (|kv|^2 >= 4).
   Depends on nothing generated. *)
From Coq Require Import Reals Lra Psatz Bool.
From SM Require Import Base.Ops Base.Lin Base.RInst Base.RLin Model.C04_R2q Model.C04_R2qCore.
Open Scope R_scope.

Lemma max0_sqrt t : 0 <= t -> sqrt (if Rltb 0 t then t else 0) = sqrt t.
Proof. intros H. unfold Rltb. destruct (Rlt_dec 0 t); [reflexivity|]. f_equal. lra. Qed.
Lemma max0_nonneg x : 0 <= x -> (if Rltb 0 x then x else 0) = x.
Proof. intros H. unfold Rltb. destruct (Rlt_dec 0 x); lra. Qed.

(* the skew part of q2r(s, v) is 4 s v *)
Lemma skew_of_q2r s x y z a00 a01 a02 a10 a11 a12 a20 a21 a22 :
  q2r_ref Rops (s, x, y, z) = ((a00,a01,a02),(a10,a11,a12),(a20,a21,a22)) ->
  a21 - a12 = 4*s*x /\ a02 - a20 = 4*s*y /\ a10 - a01 = 4*s*z.
Proof. lin_simpl. intros E. injection E; intros; subst. repeat split; ring. Qed.

(* trace > 0: row 0 of Shepperd's matrix, (trace + 1, k), divided by 2 sqrt (trace + 1) = 4 qs *)
Lemma r2q_pos_core a00 a01 a02 a10 a11 a12 a20 a21 a22 (qs : R) :
  let A : M33 R := ((a00,a01,a02),(a10,a11,a12),(a20,a21,a22)) in
  SO3 A -> 0 < a00 + a11 + a22 -> qs = sqrt (a00 + a11 + a22 + 1) / 2 ->
  let vx := (a21 - a12) / (4 * qs) in let vy := (a02 - a20) / (4 * qs) in let vz := (a10 - a01) / (4 * qs) in
  let s := sqrt (if Rltb 0 (1 - (vx*vx + vy*vy + vz*vz)) then 1 - (vx*vx + vy*vy + vz*vz) else 0) in
  q2r_ref Rops (s, vx, vy, vz) = A /\ s*s + vx*vx + vy*vy + vz*vz = 1 /\ 0 <= s.
Proof.
  intros A H Htr Eqs vx vy vz s.
  set (t1 := a00 + a11 + a22 + 1) in *. assert (Ht1 : 0 < t1) by (unfold t1; lra).
  pose proof (sqrt_lt_R0 t1 Ht1) as Hr. pose proof (sqrt_sqrt t1 (Rlt_le _ _ Ht1)) as Hrr.
  destruct (quat_of_rank1 _ A t1 Ht1 (shepperd_row0 A H)) as [E U].
  assert (Eq : vscale4 Rops (/ (2 * sqrt t1)) (row4 0 (shepperd A)) = (qs, vx, vy, vz)).
  { assert (E0 : / (2 * sqrt t1) * t1 = sqrt t1 / 2) by (rewrite <- Hrr at 2; field; lra).
    unfold vx, vy, vz, A, shepperd, row4. lin_simpl. fold t1. rewrite Eqs, E0. tuple_eq ltac:(first [reflexivity | field; lra]). }
  rewrite Eq in E, U. unfold qnormsq, dot4 in U. cbn [add mul Rops] in U.
  assert (Es : s = qs).
  { unfold s. rewrite max0_sqrt by nra. replace (1 - (vx*vx + vy*vy + vz*vz)) with (qs*qs) by lra. apply sqrt_square. rewrite Eqs. lra. }
  rewrite Es. split; [exact E|]. split; [lra|]. rewrite Eqs. lra.
Qed.

(* trace <= 0: the vector the model normalises is row 0 +- row i+1 of Shepperd's matrix without its first entry p0 >= 0,
   and D >= 4/3 because a_ii is the largest diagonal entry and trace >= -1 *)
Lemma r2q_kv_rank1 (A : M33 R) : SO3 A ->
  let '(kx, ky, kz) := r2q_kv Rops A in
  exists p0 D, 0 <= p0 /\ 4/3 <= D /\ outer4 (p0, kx, ky, kz) = mscale44 D (shepperd A).
Proof.
  intros H.
  set (e := if r2q_add Rops A then 1 else -1).
  assert (He : e = 1 \/ e = -1) by (unfold e; destruct (r2q_add Rops A); [left|right]; reflexivity).
  pose proof (shepperd_rows A (r2q_branch Rops A) e H He) as E. cbv zeta in E.
  destruct A as [[[[a00 a01] a02] [[a10 a11] a12]] [[a20 a21] a22]].
  destruct (SO3_trace_bounds _ _ _ _ _ _ _ _ _ H) as [Ht1 _]. clear H He.
  unfold e, r2q_kv, r2q_add, r2q_branch in *. cbn [leb add sub mul one zero Rops] in *.
  (* the tests of r2q_branch (contradictory combinations go by lra), then the sign test of r2q_add; in each case E speaks of
     the model's vector up to ring, p0 >= 0 is the sign test and the bound on D is the choice of the largest diagonal entry *)
  destruct (Rleb a11 a00) eqn:B1; destruct (Rleb a22 a00) eqn:B2; destruct (Rleb a22 a11) eqn:B3;
    rewrite ?Rleb_true, ?Rleb_false in *; cbn [andb] in *; try lra;
    match type of E with context [Rleb 0 ?x] => destruct (Rleb 0 x) eqn:S end;
    rewrite ?Rleb_true, ?Rleb_false in S;
    unfold shepperd, row4, nth4 in E; lin_simpl;
    match type of E with outer4 ?p = mscale44 ?D _ =>
      exists (nth4 0 p), D; cbn [nth4]; split; [lra|]; split; [lra|];
      transitivity (outer4 p); [apply f_equal; tuple_eq ltac:(ring) | exact E]
    end.
Qed.

Lemma nonneg_case_scalar (qs kx ky kz vx vy vz : R) :
  0 <= qs -> qs*qs <= /4 -> qs*qs + vx*vx + vy*vy + vz*vz = 1 ->
  kx = 4*qs*vx -> ky = 4*qs*vy -> kz = 4*qs*vz ->
  (if Rltb 0 ((kx*vx + ky*vy + kz*vz) / (4 * (vx*vx + vy*vy + vz*vz))) then (kx*vx + ky*vy + kz*vz) / (4 * (vx*vx + vy*vy + vz*vz)) else 0) = qs.
Proof.
  intros H0 Hq U -> -> ->.
  assert (V : 3/4 <= vx*vx + vy*vy + vz*vz) by lra.
  replace ((4 * qs * vx * vx + 4 * qs * vy * vy + 4 * qs * vz * vz) / (4 * (vx * vx + vy * vy + vz * vz))) with qs by (field; lra).
  apply max0_nonneg. exact H0.
Qed.

(* trace <= 0, one branch: given the branch core (q2r (qs, f kv) = A, unit, qs >= 0) and |kv|^2 >= 4, the model's result is (qs, f kv) *)
Lemma r2q_nonpos_finish a00 a01 a02 a10 a11 a12 a20 a21 a22 (kx ky kz qs : R) :
  let A : M33 R := ((a00,a01,a02),(a10,a11,a12),(a20,a21,a22)) in
  let N := kx*kx + ky*ky + kz*kz in let f := sqrt (1 - qs*qs) / sqrt N in
  a00 + a11 + a22 <= 0 -> 0 <= a00 + a11 + a22 + 1 -> qs = sqrt (a00 + a11 + a22 + 1) / 2 -> 4 <= N ->
  (q2r_ref Rops (qs, f*kx, f*ky, f*kz) = A /\ qs*qs + (f*kx)*(f*kx) + (f*ky)*(f*ky) + (f*kz)*(f*kz) = 1 /\ 0 <= qs) ->
  let q := (if Rltb (Rabs (sqrt N)) (100 * / 4503599627370496) then qone Rops
            else ((if Rltb 0 (((a21 - a12) * (f*kx) + (a02 - a20) * (f*ky) + (a10 - a01) * (f*kz)) / (4 * ((f*kx)*(f*kx) + (f*ky)*(f*ky) + (f*kz)*(f*kz))))
                   then ((a21 - a12) * (f*kx) + (a02 - a20) * (f*ky) + (a10 - a01) * (f*kz)) / (4 * ((f*kx)*(f*kx) + (f*ky)*(f*ky) + (f*kz)*(f*kz))) else 0),
                  f*kx, f*ky, f*kz)) in
  q2r_ref Rops q = A /\ qnormsq Rops q = 1 /\ 0 <= fst (fst (fst q)).
Proof.
  intros A N f Htr Ht1 Eqs HN (E & U & Q0) q.
  assert (ND : Rltb (Rabs (sqrt N)) (100 * / 4503599627370496) = false).
  { apply Rltb_false. assert (2 <= sqrt N). { rewrite <- (sqrt_square 2) by lra. apply sqrt_le_1_alt. lra. }
    rewrite Rabs_right by lra. lra. }
  assert (Hq : qs*qs <= /4). { rewrite Eqs. pose proof (sqrt_sqrt _ Ht1). nra. }
  destruct (skew_of_q2r _ _ _ _ _ _ _ _ _ _ _ _ _ E) as (K1 & K2 & K3).
  unfold q. rewrite ND.
  rewrite (nonneg_case_scalar qs _ _ _ (f*kx) (f*ky) (f*kz) Q0 Hq); try assumption; try lra.
  split; [exact E|]. unfold qnormsq, dot4. cbn [add mul Rops fst]. split; [lra | exact Q0].
Qed.

Lemma r2q_roundtrip_entries a00 a01 a02 a10 a11 a12 a20 a21 a22 :
  let A : M33 R := ((a00,a01,a02),(a10,a11,a12),(a20,a21,a22)) in
  SO3 A ->
  q2r_ref Rops (r2q_100 Rops A) = A /\ qnormsq Rops (r2q_100 Rops A) = 1 /\ 0 <= fst (fst (fst (r2q_100 Rops A))).
Proof.
  intros A H. pose proof (r2q_kv_rank1 A H) as K.
  unfold r2q_100, r2q. cbn [of_Z Rops].
  destruct (SO3_trace_bounds _ _ _ _ _ _ _ _ _ H) as [Ht1 _].
  assert (Eqs : r2q_s Rops A = sqrt (a00 + a11 + a22 + 1) / 2).
  { unfold r2q_s, A. lin_simpl. rewrite max0_sqrt by exact Ht1. f_equal. }
  unfold r2q_k, A at 1. cbn [sub Rops].
  destruct (r2q_trpos Rops A) eqn:TP; unfold r2q_trpos, A in TP; cbn [ltb add zero Rops] in TP.
  - apply Rltb_true in TP.
    unfold qnormsq, dot4, max0. cbn [add sub mul div one zero sqrt_ ltb Rops fst].
    apply r2q_pos_core; assumption.
  - apply Rltb_false in TP. assert (Htr : a00 + a11 + a22 <= 0) by lra.
    destruct (r2q_kv Rops A) as [[kx ky] kz] eqn:Ekv. destruct K as (p0 & D & Hp0 & HD & E).
    unfold r2q_degenerate. rewrite Ekv. unfold norm3, normsq3, dot3, max0.
    cbn [ltb abs_ add sub mul div one zero sqrt_ eps Rops].
    generalize dependent (r2q_s Rops A). intros qs Eqs.
    assert (F : p0*p0 = D * (a00 + a11 + a22 + 1) /\ kx*kx + ky*ky + kz*kz = D * (4 - (a00 + a11 + a22 + 1))).
    { unfold outer4, mscale44, shepperd, A in E. injection E; intros. split; lra. }
    destruct F as [F0 FN].
    assert (HN4 : 4 <= kx*kx + ky*ky + kz*kz) by nra.
    apply (r2q_nonpos_finish _ _ _ _ _ _ _ _ _ kx ky kz _ Htr Ht1 Eqs HN4).
    destruct (r2q_scalars _ p0 D _ qs _ Ht1 Hp0 F0 FN ltac:(lra) ltac:(lra) Eqs eq_refl) as [Eq Ef].
    destruct (quat_of_rank1 _ A D ltac:(lra) E) as [EA U].
    unfold vscale4 in EA, U. cbn [mul Rops] in EA, U. rewrite <- Eq, <- Ef in EA, U.
    split; [exact EA|]. split; [exact U|]. rewrite Eqs. pose proof (sqrt_pos (a00 + a11 + a22 + 1)). lra.
Qed.

Theorem r2q_roundtrip (A : M33 R) : SO3 A ->
  q2r_ref Rops (r2q_100 Rops A) = A /\ qnormsq Rops (r2q_100 Rops A) = 1 /\ 0 <= fst (fst (fst (r2q_100 Rops A))).
Proof. intros H. destruct_tuples. apply r2q_roundtrip_entries; assumption. Qed.

(* the eye() exit is dead code for rotations: it is only reachable when trace <= 0, where |kv|^2 >= 4 *)
Theorem r2q_degenerate_unreachable (A : M33 R) : SO3 A -> r2q_trpos Rops A = false -> r2q_degenerate Rops (IZR 100) A = false.
Proof.
  intros H TP. destruct (r2q_degenerate Rops (IZR 100) A) eqn:D; [|reflexivity]. exfalso.
  destruct (r2q_roundtrip A H) as (E & U & _). unfold r2q_100, r2q in *. cbn [of_Z Rops] in *. rewrite TP, D in *.
  destruct (r2q_k Rops A) as [[kx ky] kz].
  (* the result would be the identity quaternion, so A = I, whose trace is 3 > 0 *)
  destruct_tuples. unfold r2q_trpos in TP. cbn [ltb add Rops zero] in TP. apply Rltb_false in TP.
  lin_simpl. injection E; intros; subst. lra.
Qed.
