(* C10 -- several objects and iterators at once: ownership of results, and the iteration protocol.

   The single-object model (C10_SMList.v) says what an operation returns and what it does to its receiver.  It cannot say
   that a RESULT is a new object sharing no state with the receiver, nor that two iterations over one object are
   independent.  Here a world is a store of objects plus a store of iterators:
     - every object-valued result (x[i], x[a:b:c], x.pop(), next(it), items of iteration, constructed objects) is stored
       as a NEW object; later operations may address it like any other (spatialmath: `self.__class__(...)` always builds
       a new instance with its own list; Python list: slices and copies are new lists, element reads never alias the list);
     - an iterator is (object, position, alive).  MODEL: collections.abc.Sequence.__iter__, the generator
           i = 0;  try: while True: v = self[i]; yield v; i += 1   except IndexError: return
       SPECIFICATION: CPython's list iterator (listiter_next): position < len -> item, else exhausted for good.
   Tied to /repo by props/C10.py (histories over several live objects and iterators; real list iterators on the list side). *)
From Coq Require Import ZArith List Lia Bool.
From SM Require Import Model.C10_PyList Model.C10_SMList.
Import ListNotations.
Open Scope Z_scope.

Record iterator := mkIt { it_obj : nat; it_idx : Z; it_alive : bool }.
Record world := mkW { objs : list (list Z); its : list iterator }.

Inductive wop :=
  | On (t : nat) (o : op)     (* operation o on object number t *)
  | ItNew (t : nat)           (* it = iter(object t) *)
  | ItNext (j : nat).         (* next(iterator j) *)

Definition set_nth {A} (l : list A) (n : nat) (x : A) : list A := firstn n l ++ x :: skipn (S n) l.

(* x = cls(...) builds a new object; the old one stays as it is *)
Definition is_ctor (o : op) : bool :=
  match o with CtorIter | CtorCopy | CtorFrom _ | Alloc _ | Empty => true | _ => false end.
(* the objects a result consists of (the harness keeps the first two items of a full iteration alive) *)
Definition new_objs (r : res out) : list (list Z) :=
  match r with Ok (Obj ts) => [ts] | Ok (Objs l) => firstn 2 l | _ => [] end.

(* Sequence.__iter__'s generator: self[i], IndexError ends the iteration *)
Definition m_next (st : list Z) (i : Z) : option Z := match py_getitem st i with Ok v => Some v | Raise _ => None end.
(* list iterator *)
Definition s_next (st : list Z) (i : Z) : option Z := if i <? zlen st then Some (znth st i) else None.

Definition wstep (step : list Z -> op -> list Z * res out) (next : list Z -> Z -> option Z)
                 (w : world) (a : wop) : world * res out :=
  match a with
  | On t o =>
      match nth_error (objs w) t with
      | None => (w, Raise TypeError)
      | Some st =>
          let '(st', r) := step st o in
          if is_ctor o then
            match r with
            | Ok _ => (mkW (objs w ++ [st']) (its w), r)
            | Raise _ => (w, r)
            end
          else (mkW (set_nth (objs w) t st' ++ new_objs r) (its w), r)
      end
  | ItNew t =>
      match nth_error (objs w) t with
      | None => (w, Raise TypeError)
      | Some _ => (mkW (objs w) (its w ++ [mkIt t 0 true]), Ok NoneV)
      end
  | ItNext j =>
      match nth_error (its w) j with
      | None => (w, Raise TypeError)
      | Some it =>
          match nth_error (objs w) (it_obj it) with
          | None => (w, Raise TypeError)
          | Some st =>
              if it_alive it then
                match next st (it_idx it) with
                | Some v => (mkW (objs w ++ [[v]]) (set_nth (its w) j (mkIt (it_obj it) (it_idx it + 1) true)), Ok (Obj [v]))
                | None => (mkW (objs w) (set_nth (its w) j (mkIt (it_obj it) (it_idx it) false)), Raise StopIteration)
                end
              else (w, Raise StopIteration)
          end
      end
  end.

Definition wm_step (C : cls) := wstep (m_step C) m_next.
Definition ws_step := wstep s_step s_next.

Fixpoint wrun (f : world -> wop -> world * res out) (w : world) (ops : list wop) : world * list (res out) :=
  match ops with
  | [] => (w, [])
  | a :: r => let '(w', x) := f w a in let '(fin, xs) := wrun f w' r in (fin, x :: xs)
  end.

(* iterator positions never go negative *)
Definition wf (w : world) : Prop := Forall (fun it => 0 <= it_idx it) (its w).

Lemma next_agree : forall st i, 0 <= i -> m_next st i = s_next st i.
Proof.
  intros st i Hi. unfold m_next, s_next, py_getitem.
  destruct (Z.ltb_spec i (zlen st)) as [E|E].
  - rewrite py_index_in_range by lia. reflexivity.
  - destruct (py_index_cases (zlen st) i (zlen_nonneg st)) as [[-> _]|(p & _ & Hr & _)]; [reflexivity|lia].
Qed.

Lemma set_nth_length {A} : forall (l : list A) n x, (n < length l)%nat -> length (set_nth l n x) = length l.
Proof. intros. unfold set_nth. rewrite app_length, firstn_length. cbn [length]. rewrite skipn_length. lia. Qed.

Lemma set_nth_other {A} : forall (l : list A) n x u, u <> n -> (n < length l)%nat -> nth_error (set_nth l n x) u = nth_error l u.
Proof.
  induction l as [|a l IH]; intros n x u Hu Hn; cbn [length] in Hn; [lia|].
  destruct n as [|n]; destruct u as [|u]; unfold set_nth; cbn [firstn skipn app nth_error]; try reflexivity; try lia.
  apply (IH n x u); lia.
Qed.

Lemma Forall_firstn {A} (P : A -> Prop) : forall n (l : list A), Forall P l -> Forall P (firstn n l).
Proof. intros n l H. rewrite <- (firstn_skipn n l) in H. now apply Forall_app in H. Qed.
Lemma Forall_skipn {A} (P : A -> Prop) : forall n (l : list A), Forall P l -> Forall P (skipn n l).
Proof. intros n l H. rewrite <- (firstn_skipn n l) in H. now apply Forall_app in H. Qed.

Lemma wf_set_nth : forall l j it, Forall (fun it => 0 <= it_idx it) l -> 0 <= it_idx it ->
  Forall (fun it => 0 <= it_idx it) (set_nth l j it).
Proof.
  intros l j it Hl Hit. unfold set_nth. apply Forall_app. split.
  - apply Forall_firstn. exact Hl.
  - constructor; [exact Hit | apply Forall_skipn; exact Hl].
Qed.

Lemma nth_error_Forall {A} (P : A -> Prop) : forall (l : list A) n x, Forall P l -> nth_error l n = Some x -> P x.
Proof. intros l n x H E. apply (proj1 (Forall_forall P l) H). eapply nth_error_In; eauto. Qed.

(* the step preserves well-formedness (either semantics) *)
Lemma wf_step : forall step next w a, wf w -> wf (fst (wstep step next w a)).
Proof.
  intros step next w a H. unfold wf in *. destruct a as [t o|t|j]; cbn [wstep].
  - destruct (nth_error (objs w) t); [|exact H]. destruct (step l o) as [st' r].
    destruct (is_ctor o); [destruct r|]; exact H.
  - destruct (nth_error (objs w) t); [|exact H]. cbn. apply Forall_app. split; [exact H|]. constructor; [cbn; lia|constructor].
  - destruct (nth_error (its w) j) as [it|] eqn:E; [|exact H].
    destruct (nth_error (objs w) (it_obj it)); [|exact H].
    pose proof (nth_error_Forall _ _ _ _ H E) as Hit. cbn in Hit.
    destruct (it_alive it); [|exact H].
    destruct (next l (it_idx it)); cbn; apply wf_set_nth; try exact H; cbn; lia.
Qed.

(* one step: the model world IS the specification world *)
Lemma wstep_refines : forall C w a, wf w -> wm_step C w a = ws_step w a.
Proof.
  intros C w a H. unfold wm_step, ws_step. destruct a as [t o|t|j]; cbn [wstep].
  - destruct (nth_error (objs w) t); [|reflexivity]. rewrite (step_refines C l o). reflexivity.
  - reflexivity.
  - destruct (nth_error (its w) j) as [it|] eqn:E; [|reflexivity].
    destruct (nth_error (objs w) (it_obj it)); [|reflexivity].
    pose proof (nth_error_Forall _ _ _ _ H E) as Hit. cbn in Hit.
    rewrite (next_agree l (it_idx it) Hit). reflexivity.
Qed.

Lemma wrun_refines : forall C ops w, wf w -> wrun (wm_step C) w ops = wrun ws_step w ops.
Proof.
  intros C ops. induction ops as [|a r IH]; intros w H; [reflexivity|].
  cbn [wrun]. rewrite (wstep_refines C w a H).
  pose proof (wf_step s_step s_next w a H) as H'. fold ws_step in H'.
  destruct (ws_step w a) as [w' x]. cbn in H'. rewrite (IH w' H'). reflexivity.
Qed.

(* FRAME: an operation changes no object other than the one it is applied to; iterator operations change no object at all;
   results are NEW objects (appended), so they share nothing with the receiver *)
Definition target (a : wop) : option nat := match a with On t o => if is_ctor o then None else Some t | _ => None end.

Lemma frame : forall step next w a u, (u < length (objs w))%nat -> target a <> Some u ->
  nth_error (objs (fst (wstep step next w a))) u = nth_error (objs w) u.
Proof.
  intros step next w a u Hu Ht. destruct a as [t o|t|j]; cbn [wstep].
  - destruct (nth_error (objs w) t) as [st|] eqn:E; [|reflexivity].
    destruct (step st o) as [st' r]. cbn [target] in Ht.
    destruct (is_ctor o).
    + destruct r; cbn; [apply nth_error_app1; exact Hu | reflexivity].
    + cbn. assert (Htl : (t < length (objs w))%nat) by (apply nth_error_Some; congruence).
      rewrite nth_error_app1 by (rewrite set_nth_length; assumption).
      apply set_nth_other; [congruence | exact Htl].
  - destruct (nth_error (objs w) t); reflexivity.
  - destruct (nth_error (its w) j) as [it|]; [|reflexivity].
    destruct (nth_error (objs w) (it_obj it)); [|reflexivity].
    destruct (it_alive it); [|reflexivity].
    destruct (next l (it_idx it)); cbn; [apply nth_error_app1; exact Hu | reflexivity].
Qed.

(* the number of objects only grows *)
Lemma objs_grow : forall step next w a, (length (objs w) <= length (objs (fst (wstep step next w a))))%nat.
Proof.
  intros step next w a. destruct a as [t o|t|j]; cbn [wstep].
  - destruct (nth_error (objs w) t) as [st|] eqn:E; [|cbn; lia].
    destruct (step st o) as [st' r].
    assert (Htl : (t < length (objs w))%nat) by (apply nth_error_Some; congruence).
    destruct (is_ctor o); [destruct r; cbn; [rewrite app_length|]; lia|].
    cbn. rewrite app_length, set_nth_length by assumption. lia.
  - destruct (nth_error (objs w) t); cbn; lia.
  - destruct (nth_error (its w) j) as [it|]; [|cbn; lia].
    destruct (nth_error (objs w) (it_obj it)); [|cbn; lia].
    destruct (it_alive it); [|cbn; lia].
    destruct (next l (it_idx it)); cbn; [rewrite app_length|]; lia.
Qed.

(* two iterators over the same object are independent: advancing one does not move the other *)
Lemma iterators_independent : forall step next w j k,
  j <> k -> (j < length (its w))%nat -> nth_error (its (fst (wstep step next w (ItNext j)))) k = nth_error (its w) k.
Proof.
  intros step next w j k Hjk Hj. cbn [wstep].
  destruct (nth_error (its w) j) as [it|]; [|reflexivity].
  destruct (nth_error (objs w) (it_obj it)); [|reflexivity].
  destruct (it_alive it); [|reflexivity].
  destruct (next l (it_idx it)); cbn; apply set_nth_other; auto.
Qed.

Definition enc_state (o : option (list Z)) : list Z := match o with Some st => zlen st :: st | None => [-1] end.
Definition wtarget (w : world) (a : wop) : option nat :=
  match a with
  | On t _ => Some t
  | ItNew t => Some t
  | ItNext j => match nth_error (its w) j with Some it => Some (it_obj it) | None => None end
  end.
(* result, state of the addressed object afterwards, number of new objects and their states *)
Definition enc_wstep (w : world) (a : wop) (x : world * res out) : list Z :=
  let w' := fst x in
  let news := skipn (length (objs w)) (objs w') in
  enc_out (snd x)
  ++ enc_state (match wtarget w a with Some t => nth_error (objs w') t | None => None end)
  ++ zlen news :: flat_map (fun st => zlen st :: st) news.

Fixpoint wlockstep (C : cls) (w : world) (ops : list wop) : list (list Z) :=
  match ops with
  | [] => []
  | a :: r => enc_wstep w a (wm_step C w a) :: enc_wstep w a (ws_step w a) :: wlockstep C (fst (ws_step w a)) r
  end.
Definition wstart (n : Z) : world := mkW [iota n] [].
