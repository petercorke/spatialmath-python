(* Opening a goal "trace = reference" of C16 into scalar identities: the traced definitions (hint database smgen,
   created by gen/Traces_C16.v), the reference semantics of Model/C16_ref.v (smref) and the generics of Base/Lin.v
   are unfolded together; ring or field then closes each entry. *)
From Coq Require Import Reals.
From SM Require Import Base.Ops Base.Lin Base.RInst Base.RLin Model.C16_ref.

Ltac ref_unfold := intros; destruct_tuples; unfold trinv_ref in *; autounfold with smgen smref smlin; sm_simpl.
Ltac ref_ring := ref_unfold; tuple_eq ltac:(ring).
Ltac ref_field := ref_unfold; tuple_eq ltac:(field).
