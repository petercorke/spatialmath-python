(* C03 -- theorems over R about the hand model of theories/Model/C03_ExpLog.v: the logarithm of fix 84bd1d7 (atan2 angle,
   symmetric-part half-turn axis) and the closed-form 2-D logarithm of fix c4462a7 against the exponential
   (exp (log R) = R, log (exp S) = S), totality of the so(3) exponential, and Twist3.exp with a vector of angles. *)
From Coq Require Import Reals ZArith Lra Psatz List.
From SM Require Import Base.Ops Base.Lin Base.RInst Base.RLin Model.C03_ExpLog Model.C03_Lemmas Model.C05_Trig.
Open Scope R_scope.

Lemma st_is_zero_false (Rm : M33 R) : log_st Rops Rm <> 0 -> st_is_zero Rops Rm = false.
Proof. intros H. unfold st_is_zero. cbn [eqb zero Rops]. apply Reqb_false_of. exact H. Qed.

(* the quantities of trlog on an explicit matrix *)
Section Explicit.
Variables r00 r01 r02 r10 r11 r12 r20 r21 r22 : R.
Let Rm : M33 R := ((r00,r01,r02),(r10,r11,r12),(r20,r21,r22)).
Let c := (r00 + r11 + r22 - 1) / 2.
Let l0 := (r21 - r12)/2. Let l1 := (r02 - r20)/2. Let l2 := (r10 - r01)/2.

Lemma log_c_eq : log_c Rops Rm = c.
Proof. unfold Rm, c. c03_simpl. field. Qed.
Lemma log_li_eq : log_li Rops Rm = (l0, l1, l2).
Proof. unfold Rm, l0, l1, l2. c03_simpl. tuple_eq ltac:(field). Qed.
Lemma log_st_eq : log_st Rops Rm = sqrt (l0*l0 + l1*l1 + l2*l2).
Proof. unfold log_st. rewrite log_li_eq. reflexivity. Qed.

Hypothesis HR : SO3 Rm.
Lemma li_normsq : l0*l0 + l1*l1 + l2*l2 = 1 - c*c.
Proof. exact (so3_vex_normsq _ _ _ _ _ _ _ _ _ HR). Qed.
Lemma c_range : -1 <= c <= 1.
Proof.
  pose proof li_normsq. pose proof (Rle_0_sqr l0). pose proof (Rle_0_sqr l1). pose proof (Rle_0_sqr l2).
  unfold Rsqr in *. nra.
Qed.
Lemma st_facts : let st := log_st Rops Rm in 0 <= st /\ st*st = 1 - c*c /\ c*c + st*st = 1.
Proof.
  cbv zeta. rewrite log_st_eq, li_normsq. pose proof c_range.
  assert (0 <= 1 - c*c) by nra. split; [apply sqrt_pos|]. rewrite sqrt_sqrt by assumption. split; ring.
Qed.
(* the angle: cos = c, sin = st, in [0, PI] *)
Lemma theta_facts : let th := log_theta Rops Rm in let st := log_st Rops Rm in
  cos th = c /\ sin th = st /\ 0 <= th <= PI /\ 0 <= st /\ st*st = 1 - c*c.
Proof.
  cbv zeta. unfold log_theta. rewrite log_c_eq. cbn [atan2_ Rops]. destruct st_facts as (H0 & H1 & H2).
  destruct (cs_atan2_unit c (log_st Rops Rm) H2) as [Hc Hs]. repeat split; try assumption.
  - apply atan2_nonneg; [assumption | lra].
  - apply atan2_range.
Qed.
End Explicit.

(* exp of (theta * u) for a unit u and theta above the unit threshold is rodrigues_th u theta *)
Lemma trexp_so3_scaled K (u0 u1 u2 th : R) :
  thr_ok K -> u0*u0 + u1*u1 + u2*u2 = 1 -> thv Rops (k_unit K) < th ->
  trexp_so3 Rops K (u0*th, u1*th, u2*th) = Ok (rodrigues_th Rops (u0,u1,u2) th).
Proof.
  intros HK Hu Hth. pose proof (thv_zero_unit K HK) as Hzu.
  unfold trexp_so3, rodrigues3, iszerovec3, unitvec_norm3. rewrite norm3_scale_r by (lra || exact Hu). cbn [ltb leb Rops].
  rewrite Rltb_false_of, Rleb_true_of by lra.
  cbn [div Rops]. f_equal. f_equal. repeat apply f_equal2; field; lra.
Qed.

(* a vector of norm th above the unit threshold is (L/th)*th, with L/th a unit vector *)
Lemma trexp_so3_by_norm K (L0 L1 L2 th : R) :
  thr_ok K -> norm3 Rops (L0,L1,L2) = th -> thv Rops (k_unit K) < th ->
  normsq3 Rops (L0/th, L1/th, L2/th) = 1 /\
  trexp_so3 Rops K (L0,L1,L2) = Ok (rodrigues_th Rops (L0/th, L1/th, L2/th) th).
Proof.
  intros HK Hn Hth. assert (Hth0 : 0 < th) by (pose proof (thv_zero_unit K HK); lra).
  assert (Hsq : normsq3 Rops (L0,L1,L2) = th*th) by (rewrite <- Hn; symmetry; apply norm3_sq).
  assert (Hun : normsq3 Rops (L0/th, L1/th, L2/th) = 1).
  { apply unit_div3; [symmetry; exact Hsq | lra]. }
  split; [exact Hun|]. rewrite <- (trexp_so3_scaled K _ _ _ th HK Hun Hth). f_equal. tuple_eq ltac:(field; lra).
Qed.

(* in the general branch sin(theta) = 0 is excluded: it would mean theta = PI, i.e. c = -1, the half-turn test *)
Lemma general_st_pos K (Rm : M33 R) :
  thr_ok K -> SO3 Rm -> trlog_so3_branch Rops K Rm = BrGen -> 0 < log_theta Rops Rm -> 0 < log_st Rops Rm.
Proof.
  intros HK HR Hbr Hth0. pose proof HK as (Kz & Kzu & Kh & Ke & Kiu & Kz1 & Kiu1). pose proof eps_pos as He.
  destruct Rm as [[[[r00 r01] r02] [[r10 r11] r12]] [[r20 r21] r22]]. unfold M33, V3 in *.
  destruct (theta_facts _ _ _ _ _ _ _ _ _ HR) as (Hcos & Hsin & [Hr0 HrP] & Hst0 & Hst2). cbv zeta in *.
  set (Rm := ((r00,r01,r02),(r10,r11,r12),(r20,r21,r22))) in *.
  set (th := log_theta Rops Rm) in *. set (st := log_st Rops Rm) in *. set (c := (r00 + r11 + r22 - 1)/2) in *.
  destruct (Req_dec st 0) as [E|E]; [|lra]. exfalso. rewrite E in Hsin.
  assert (th = PI). { destruct (Req_dec th PI); [assumption|]. assert (0 < sin th) by (apply sin_gt_0; lra). lra. }
  assert (c = -1) by (rewrite <- Hcos; replace th with PI by auto; apply cos_PI).
  unfold trlog_so3_branch in Hbr. destruct (iseye33 Rops K _); [discriminate|].
  match type of Hbr with (if ?b then _ else _) = _ => destruct b eqn:Hb; [discriminate|] end.
  cbn [ltb Rops] in Hb. apply Rltb_false in Hb. apply Hb. rewrite thv_R. unfold Rm. c03_simpl.
  replace (r00 + r11 + r22 + 1) with 0 by (unfold c in *; lra). rewrite Rabs_R0. nra.
Qed.

Theorem explog_so3_general (K : thr) (Rm : M33 R) :
  thr_ok K -> SO3 Rm ->
  trlog_so3_branch Rops K Rm = BrGen ->
  thv Rops (k_unit K) < log_theta Rops Rm ->
  trexp_so3 Rops K (trlog_so3_tw Rops K Rm) = Ok Rm /\
  norm3 Rops (trlog_so3_tw Rops K Rm) = log_theta Rops Rm /\ 0 < log_theta Rops Rm <= PI.
Proof.
  intros HK HR Hbr Hth. pose proof HK as (Kz & Kzu & Kh & Ke & Kiu & Kz1 & Kiu1). pose proof eps_pos as He.
  destruct Rm as [[[[r00 r01] r02] [[r10 r11] r12]] [[r20 r21] r22]]. unfold M33, V3 in *.
  destruct (theta_facts _ _ _ _ _ _ _ _ _ HR) as (Hcos & Hsin & [Hr0 HrP] & Hst0 & Hst2). cbv zeta in *.
  pose proof (log_li_eq r00 r01 r02 r10 r11 r12 r20 r21 r22) as Hli.
  pose proof (li_normsq _ _ _ _ _ _ _ _ _ HR) as Hn. cbv zeta in *.
  set (Rm := ((r00,r01,r02),(r10,r11,r12),(r20,r21,r22))) in *.
  set (th := log_theta Rops Rm) in *. set (st := log_st Rops Rm) in *. set (c := (r00 + r11 + r22 - 1)/2) in *.
  assert (Hth0 : 0 < th) by (pose proof (thv_zero_unit K HK); lra).
  assert (Hstpos : 0 < st) by (apply (general_st_pos K); assumption).
  (* the twist-form log *)
  assert (Hw : trlog_so3_tw Rops K Rm = ((r21 - r12)/2/st*th, (r02 - r20)/2/st*th, (r10 - r01)/2/st*th)).
  { unfold trlog_so3_tw. rewrite Hbr, st_is_zero_false by (fold st; lra). unfold log_general. fold th st. clearbody th st. unfold Rm. c03_simpl.
    tuple_eq ltac:(field; lra). }
  rewrite Hw.
  assert (Hu : ((r21 - r12)/2/st)*((r21 - r12)/2/st) + ((r02 - r20)/2/st)*((r02 - r20)/2/st) + ((r10 - r01)/2/st)*((r10 - r01)/2/st) = 1).
  { apply (unit_div3 ((r21 - r12)/2) ((r02 - r20)/2) ((r10 - r01)/2) st); [rewrite Hst2; symmetry; exact Hn | lra]. }
  split; [|split; [|lra]].
  - rewrite trexp_so3_scaled by assumption. f_equal. unfold rodrigues_th. cbn [cos_ sin_ Rops]. rewrite Hcos, Hsin.
    apply rodrigues_of_log; [exact HR | exact Hst2 | lra].
  - apply norm3_scale_r; [lra | exact Hu].
Qed.

(* what trlog reads off a Rodrigues matrix *)
Lemma log_li_rodrigues (v : V3 R) c s : log_li Rops (rodrigues_cs Rops v c s) = vscale3 Rops s v.
Proof. destruct v as [[v0 v1] v2]. c03_simpl. tuple_eq ltac:(field). Qed.

Lemma log_of_rodrigues (u : V3 R) th : normsq3 Rops u = 1 -> 0 < th < PI ->
  let Rm := rodrigues_th Rops u th in
  log_li Rops Rm = vscale3 Rops (sin th) u /\ log_st Rops Rm = sin th /\ log_c Rops Rm = cos th /\ log_theta Rops Rm = th.
Proof.
  intros Hu Hth Rm. assert (Hs : 0 < sin th) by (apply sin_gt_0; lra).
  assert (Hli : log_li Rops Rm = vscale3 Rops (sin th) u) by apply log_li_rodrigues.
  assert (Hst : log_st Rops Rm = sin th) by (unfold log_st; rewrite Hli; apply norm3_scale; [lra | exact Hu]).
  assert (Hc : log_c Rops Rm = cos th).
  { destruct u as [[u0 u1] u2]. unfold Rm, rodrigues_th. cbn [cos_ sin_ Rops]. c03_simpl. generalize (cos th) (sin th). intros c s.
    transitivity ((3 - 2*(1 - c)*(u0*u0 + u1*u1 + u2*u2) - 1)/(1+1)); [f_equal; ring | rewrite Hu; field]. }
  repeat split; try assumption. unfold log_theta. rewrite Hst, Hc. cbn [atan2_ Rops]. apply atan2_sin_cos. lra.
Qed.

(* log(exp S) = S in the general branch: S = theta u, u unit, 0 < theta < pi *)
Theorem logexp_so3_general K (u : V3 R) th :
  normsq3 Rops u = 1 -> 0 < th < PI ->
  trlog_so3_branch Rops K (rodrigues_th Rops u th) = BrGen ->
  trlog_so3_tw Rops K (rodrigues_th Rops u th) = vscale3 Rops th u.
Proof.
  intros Hu Hth Hbr. unfold trlog_so3_tw. rewrite Hbr.
  assert (Hs : 0 < sin th) by (apply sin_gt_0; lra).
  destruct (log_of_rodrigues u th Hu Hth) as (Hli & Hst & Hc & Hlt). cbv zeta in *.
  rewrite st_is_zero_false by (rewrite Hst; lra). unfold log_general.
  rewrite Hlt, Hst. destruct u as [[u0 u1] u2]. unfold rodrigues_th. cbn [cos_ sin_ Rops]. revert Hs.
  generalize (cos th) (sin th). intros c s Hs. c03_simpl. tuple_eq ltac:(field; lra).
Qed.

(* Rodrigues rebuilt from its parts: unit w, sin*w = l, (1-c) w w' = B  ==>  c I + skew(l) + B *)
Lemma rod_from_parts w0 w1 w2 c st l0 l1 l2 B00 B01 B02 B11 B12 B22 :
  w0*w0 + w1*w1 + w2*w2 = 1 -> st*w0 = l0 -> st*w1 = l1 -> st*w2 = l2 ->
  (1-c)*(w0*w0) = B00 -> (1-c)*(w0*w1) = B01 -> (1-c)*(w0*w2) = B02 ->
  (1-c)*(w1*w1) = B11 -> (1-c)*(w1*w2) = B12 -> (1-c)*(w2*w2) = B22 ->
  rodrigues_cs Rops (w0,w1,w2) c st =
  ((c + B00, - l2 + B01, l1 + B02), (l2 + B01, c + B11, - l0 + B12), (- l1 + B02, l0 + B12, c + B22)).
Proof.
  intros Hw <- <- <- <- <- <- <- <- <-. c03_simpl.
  assert (E : w2*w2 = 1 - w0*w0 - w1*w1) by lra.
  tuple_eq ltac:(try ring).
  all: assert (E2 : w2^2 = 1 - w0^2 - w1^2) by (simpl; lra); ring_simplify; rewrite E2; ring.
Qed.

(* the half-turn axis: a column b = B[:,k] of the rank-one matrix B = (1-c) n n', normalised by sqrt((1-c) B_kk), sign fixed by l;
   lk is the k-th entry of l *)
Lemma axis_from_column b0 b1 b2 bkk lk c l0 l1 l2 st B00 B01 B02 B11 B12 B22 :
  0 < bkk -> c < 1 -> 0 <= st -> st*st = l0*l0 + l1*l1 + l2*l2 ->
  b0*b0 = B00*bkk -> b0*b1 = B01*bkk -> b0*b2 = B02*bkk -> b1*b1 = B11*bkk -> b1*b2 = B12*bkk -> b2*b2 = B22*bkk ->
  b0*l0 + b1*l1 + b2*l2 = (B00 + B11 + B22)*lk -> b0*lk = bkk*l0 -> b1*lk = bkk*l1 -> b2*lk = bkk*l2 ->
  B00 + B11 + B22 = 1 - c ->
  let d := sqrt ((1 - c)*bkk) in
  let w := (b0/d, b1/d, b2/d) in
  let wf := if Rltb (dot3 Rops w (l0,l1,l2)) 0 then vneg3 Rops w else w in
  normsq3 Rops wf = 1 /\
  rodrigues_cs Rops wf c st = ((c + B00, - l2 + B01, l1 + B02), (l2 + B01, c + B11, - l0 + B12), (- l1 + B02, l0 + B12, c + B22)).
Proof.
  intros Hb Hc Hst Hst2 A00 A01 A02 A11 A12 A22 HS K0 K1 K2 Htr. cbv zeta.
  assert (Hd2 : sqrt ((1 - c)*bkk) * sqrt ((1 - c)*bkk) = (1 - c)*bkk) by (apply sqrt_sqrt; nra).
  assert (Hd : 0 < sqrt ((1 - c)*bkk)) by (apply sqrt_lt_R0; nra).
  set (d := sqrt ((1 - c)*bkk)) in *. clearbody d.
  set (s := dot3 Rops (b0/d, b1/d, b2/d) (l0,l1,l2)).
  assert (Hs : s = (1 - c)*lk/d) by (unfold s; c03_simpl; rewrite <- Htr, <- HS; field; lra).
  assert (W : forall x li, x*lk = bkk*li -> x/d*s = li).
  { intros x li E. rewrite Hs. transitivity ((1 - c)*(x*lk)/(d*d)); [field; lra | rewrite E, Hd2; field; lra]. }
  assert (P : forall x y Bxy, x*y = Bxy*bkk -> (1 - c)*(x/d*(y/d)) = Bxy).
  { intros x y Bxy E. transitivity ((1 - c)*(x*y)/(d*d)); [field; lra | rewrite E, Hd2; field; lra]. }
  assert (Hww : b0/d*(b0/d) + b1/d*(b1/d) + b2/d*(b2/d) = 1).
  { apply Rmult_eq_reg_l with (1 - c); [|lra]. rewrite !Rmult_plus_distr_l.
    rewrite (P _ _ _ A00), (P _ _ _ A11), (P _ _ _ A22). lra. }
  assert (Hss : s*s = st*st).
  { rewrite Hst2, <- (W _ _ K0), <- (W _ _ K1), <- (W _ _ K2).
    transitivity (s*s*(b0/d*(b0/d) + b1/d*(b1/d) + b2/d*(b2/d))); [rewrite Hww; ring | ring]. }
  unfold Rltb. destruct (Rlt_dec s 0) as [Neg|Pos]; cbn [vneg3 neg Rops].
  - assert (Es : - s = st) by (apply sq_eq_nonneg; [lra | lra | nra]).
    assert (U : - (b0/d) * - (b0/d) + - (b1/d) * - (b1/d) + - (b2/d) * - (b2/d) = 1) by (rewrite <- Hww; ring).
    split; [exact U | apply rod_from_parts; [exact U|..]].
    + rewrite <- Es, <- (W _ _ K0). ring.
    + rewrite <- Es, <- (W _ _ K1). ring.
    + rewrite <- Es, <- (W _ _ K2). ring.
    + rewrite <- (P _ _ _ A00). ring.
    + rewrite <- (P _ _ _ A01). ring.
    + rewrite <- (P _ _ _ A02). ring.
    + rewrite <- (P _ _ _ A11). ring.
    + rewrite <- (P _ _ _ A12). ring.
    + rewrite <- (P _ _ _ A22). ring.
  - assert (Es : s = st) by (apply sq_eq_nonneg; [lra | lra | nra]). rewrite <- Es.
    split; [exact Hww | apply rod_from_parts; [exact Hww | rewrite Rmult_comm; apply W; assumption .. | | | | | | ]; apply P; assumption].
Qed.

(* whichever entry argmax3 picks is positive when the sum is *)
Lemma argmax3_pos d0 d1 d2 : 0 < d0 + d1 + d2 ->
  (argmax3 Rops d0 d1 d2 = 0%nat /\ 0 < d0) \/ (argmax3 Rops d0 d1 d2 = 1%nat /\ 0 < d1) \/ (argmax3 Rops d0 d1 d2 = 2%nat /\ 0 < d2).
Proof.
  intros H. unfold argmax3. cbn [leb Rops]. unfold Rleb.
  destruct (Rle_dec d1 d0), (Rle_dec d2 d0); cbn [andb].
  1: left; split; [reflexivity|lra].
  all: destruct (Rle_dec d2 d1); [right; left | right; right]; (split; [reflexivity|lra]).
Qed.

Section HalfTurnAxis.
Variables r00 r01 r02 r10 r11 r12 r20 r21 r22 : R.
Hypothesis HR : SO3 ((r00,r01,r02),(r10,r11,r12),(r20,r21,r22)).
Let t := r00 + r11 + r22 - 1.
Let b00 := 2*r00 - t. Let b11 := 2*r11 - t. Let b22 := 2*r22 - t.
Let b01 := r01 + r10. Let b02 := r02 + r20. Let b12 := r12 + r21.
Let m0 := r21 - r12. Let m1 := r02 - r20. Let m2 := r10 - r01.
(* each identity is a combination, with constant coefficients, of the row, column and cofactor equations of R: lra, with the
   products as atoms, finds it *)
Lemma so3_sym_rank1 :
  b00*b11 = b01*b01 /\ b00*b22 = b02*b02 /\ b11*b22 = b12*b12 /\
  b01*b02 = b00*b12 /\ b01*b12 = b11*b02 /\ b02*b12 = b22*b01.
Proof. unfold b00,b11,b22,b01,b02,b12,t. so3_facts HR. repeat split; lra. Qed.
Lemma so3_sym_axis :
  b01*m0 = b00*m1 /\ b02*m0 = b00*m2 /\ b01*m1 = b11*m0 /\ b12*m1 = b11*m2 /\ b02*m2 = b22*m0 /\ b12*m2 = b22*m1.
Proof. unfold b00,b11,b22,b01,b02,b12,m0,m1,m2,t. so3_facts HR. repeat split; lra. Qed.

(* the same in terms of B = (R+R')/2 - c I and l = vex((R-R')/2) *)
Let c := (r00 + r11 + r22 - 1)/2.
Let B00 := r00 - c. Let B11 := r11 - c. Let B22 := r22 - c.
Let B01 := (r01 + r10)/2. Let B02 := (r02 + r20)/2. Let B12 := (r12 + r21)/2.
Let l0 := (r21 - r12)/2. Let l1 := (r02 - r20)/2. Let l2 := (r10 - r01)/2.
Lemma so3_B_facts :
  (B00*B11 = B01*B01 /\ B00*B22 = B02*B02 /\ B11*B22 = B12*B12 /\
   B01*B02 = B00*B12 /\ B01*B12 = B11*B02 /\ B02*B12 = B22*B01) /\
  (B01*l0 = B00*l1 /\ B02*l0 = B00*l2 /\ B01*l1 = B11*l0 /\ B12*l1 = B11*l2 /\ B02*l2 = B22*l0 /\ B12*l2 = B22*l1) /\
  B00 + B11 + B22 = 1 - c.
Proof.
  destruct so3_sym_rank1 as (R1&R2&R3&R4&R5&R6). destruct so3_sym_axis as (A1&A2&A3&A4&A5&A6).
  assert (E00 : b00 = 2*B00) by (unfold b00, B00, c, t; field).
  assert (E11 : b11 = 2*B11) by (unfold b11, B11, c, t; field).
  assert (E22 : b22 = 2*B22) by (unfold b22, B22, c, t; field).
  assert (E01 : b01 = 2*B01) by (unfold b01, B01; field).
  assert (E02 : b02 = 2*B02) by (unfold b02, B02; field).
  assert (E12 : b12 = 2*B12) by (unfold b12, B12; field).
  assert (F0 : m0 = 2*l0) by (unfold m0, l0; field).
  assert (F1 : m1 = 2*l1) by (unfold m1, l1; field).
  assert (F2 : m2 = 2*l2) by (unfold m2, l2; field).
  rewrite E00, E11, E22, E01, E02, E12 in *. rewrite F0, F1, F2 in *.
  assert (Htr : B00 + B11 + B22 = 1 - c) by (unfold B00, B11, B22, c; field).
  clearbody B00 B11 B22 B01 B02 B12 l0 l1 l2.
  repeat split; lra.
Qed.
End HalfTurnAxis.

(* what the 3-D half-turn branch asks of the thresholds beyond thr_ok: the half-turn band and the unit band are small *)
Definition thr_ok2 (K : thr) : Prop := thr_ok K /\ IZR (k_half K) * eps Rops < 2 /\ IZR (k_unit K) * eps Rops < 1.

Lemma sympart_minus_eq r00 r01 r02 r10 r11 r12 r20 r21 r22 c :
  sympart_minus Rops ((r00,r01,r02),(r10,r11,r12),(r20,r21,r22)) c =
  ((r00 - c, (r01 + r10)/2, (r02 + r20)/2), ((r01 + r10)/2, r11 - c, (r12 + r21)/2), ((r02 + r20)/2, (r12 + r21)/2, r22 - c)).
Proof. c03_simpl. tuple_eq ltac:(field). Qed.

Theorem explog_so3_halfturn (K : thr) (Rm : M33 R) :
  thr_ok2 K -> SO3 Rm ->
  trlog_so3_branch Rops K Rm = BrHalf ->
  trexp_so3 Rops K (trlog_so3_tw Rops K Rm) = Ok Rm /\
  norm3 Rops (trlog_so3_tw Rops K Rm) = log_theta Rops Rm /\ 0 < log_theta Rops Rm <= PI.
Proof.
  intros (HK & Kh2 & Ku1) HR Hbr. pose proof HK as (Kz & Kzu & Kh & Ke & Kiu & Kz1 & Kiu1). pose proof eps_pos as He.
  destruct Rm as [[[[r00 r01] r02] [[r10 r11] r12]] [[r20 r21] r22]]. unfold M33, V3 in *.
  destruct (theta_facts _ _ _ _ _ _ _ _ _ HR) as (Hcos & Hsin & [Hr0 HrP] & Hst0 & Hst2). cbv zeta in *.
  pose proof (log_li_eq r00 r01 r02 r10 r11 r12 r20 r21 r22) as Hli.
  pose proof (log_c_eq r00 r01 r02 r10 r11 r12 r20 r21 r22) as Hc.
  pose proof (li_normsq _ _ _ _ _ _ _ _ _ HR) as Hn. cbv zeta in *.
  destruct (so3_B_facts _ _ _ _ _ _ _ _ _ HR) as ((R1&R2&R3&R4&R5&R6) & (A1&A2&A3&A4&A5&A6) & Htr).
  set (Rm := ((r00,r01,r02),(r10,r11,r12),(r20,r21,r22))) in *.
  set (th := log_theta Rops Rm) in *. set (st := log_st Rops Rm) in *. set (c := (r00 + r11 + r22 - 1)/2) in *.
  set (B00 := r00 - c) in *. set (B11 := r11 - c) in *. set (B22 := r22 - c) in *.
  set (B01 := (r01 + r10)/2) in *. set (B02 := (r02 + r20)/2) in *. set (B12 := (r12 + r21)/2) in *.
  set (l0 := (r21 - r12)/2) in *. set (l1 := (r02 - r20)/2) in *. set (l2 := (r10 - r01)/2) in *.
  (* the band: c < 0 *)
  assert (Hcneg : c < 0).
  { unfold trlog_so3_branch in Hbr. destruct (iseye33 Rops K _); [discriminate|].
    match type of Hbr with (if ?b then _ else _) = _ => destruct b eqn:Hb; [|discriminate] end.
    cbn [ltb Rops] in Hb. apply Rltb_true in Hb. rewrite thv_R in Hb. unfold Rm in Hb. c03_simpl.
    apply Rabs_def2 in Hb. unfold c. lra. }
  assert (Hq : 0 < 1 - c) by lra.
  assert (Hth : PI/2 < th).
  { destruct (Rlt_dec (PI/2) th); [assumption|exfalso]. assert (0 <= cos th) by (apply cos_ge_0; lra). lra. }
  assert (Hthu : thv Rops (k_unit K) < th).
  { rewrite thv_R. pose proof PI2_1. lra. }
  (* an axis f is right when it is a unit vector whose Rodrigues matrix at (c, st) is c I + skew(l) + B *)
  assert (Fin : forall f : V3 R,
     normsq3 Rops f = 1 /\
     rodrigues_cs Rops f c st = ((c + B00, - l2 + B01, l1 + B02), (l2 + B01, c + B11, - l0 + B12), (- l1 + B02, l0 + B12, c + B22)) ->
     let w := (let '(f0,f1,f2) := f in (f0*th, f1*th, f2*th)) in
     trexp_so3 Rops K w = Ok Rm /\ norm3 Rops w = th /\ 0 < th <= PI).
  { intros [[f0 f1] f2] [Hf Hrod]. cbv zeta. split; [|split; [|lra]].
    - rewrite trexp_so3_scaled by assumption. f_equal. unfold rodrigues_th. cbn [cos_ sin_ Rops]. rewrite Hcos, Hsin, Hrod.
      unfold Rm, B00, B11, B22, B01, B02, B12, l0, l1, l2. tuple_eq ltac:(field).
    - apply norm3_scale_r; [lra | exact Hf]. }
  unfold trlog_so3_tw. rewrite Hbr. unfold halfturn_w. fold th. apply Fin.
  assert (HB : sympart_minus Rops Rm c = ((B00,B01,B02),(B01,B11,B12),(B02,B12,B22))) by (unfold Rm; apply sympart_minus_eq).
  unfold halfturn_axis. rewrite Hc, Hli. fold c. rewrite !HB.
  (* whichever column the argmax picks, its diagonal entry is positive *)
  destruct (argmax3_pos B00 B11 B22) as [[-> Hb]|[[-> Hb]|[-> Hb]]]; [lra|..];
    cbn [col33 mtr33 diag_k one sub mul div ltb zero sqrt_ Rops].
  - apply axis_from_column with (lk := l0); lra.
  - apply axis_from_column with (lk := l1); lra.
  - apply axis_from_column with (lk := l2); lra.
Qed.

(* exp(log R) = R on SO(3), outside the identity band and with the angle above the unit threshold of trexp *)
Theorem explog_SO3 (K : thr) (Rm : M33 R) :
  thr_ok2 K -> SO3 Rm ->
  trlog_so3_branch Rops K Rm <> BrEye ->
  thv Rops (k_unit K) < log_theta Rops Rm ->
  trexp_so3 Rops K (trlog_so3_tw Rops K Rm) = Ok Rm /\
  norm3 Rops (trlog_so3_tw Rops K Rm) = log_theta Rops Rm /\ 0 < log_theta Rops Rm <= PI.
Proof.
  intros HK HR Hne Hth. destruct (trlog_so3_branch Rops K Rm) eqn:Hbr.
  - contradiction.
  - apply explog_so3_halfturn; assumption.
  - apply explog_so3_general; [exact (proj1 HK) | assumption..].
Qed.

(* the planar closed-form logarithm (fix c4462a7): the iszero threshold lies below the unit threshold *)
Definition thr_ok_2d (K : thr) : Prop := thr_ok K /\ IZR (k_iszero K) <= IZR (k_unit K).

(* the value of trexp2 on an se(2) vector with |theta| above the unit threshold *)
Lemma trexp2_se2_value K v0 v1 th :
  thr_ok_2d K -> thv Rops (k_unit K) < Rabs th ->
  trexp2_se2 Rops K (v0, v1, th) =
  Ok ((cos th, - sin th, (sin th * v0 - (1 - cos th) * v1)/th),
      (sin th, cos th, ((1 - cos th) * v0 + sin th * v1)/th), (0, 0, 1)).
Proof.
  intros (HK & Kiz) Hth. pose proof (thv_zero_unit K HK) as Hzu. pose proof (above_unit_neq_0 K th HK Hth) as Hth0.
  assert (Hizu : thv Rops (k_iszero K) <= thv Rops (k_unit K)) by (pose proof eps_pos; rewrite !thv_R; apply Rmult_le_compat_r; lra).
  assert (Kz1 : thv Rops (k_zero K) < 1) by apply HK.
  assert (Hphi : 0 < Rabs th) by lra.
  unfold trexp2_se2, iszerovec3.
  assert (Hn : ~ norm3 Rops (v0, v1, th) < thv Rops (k_zero K)).
  { c03_simpl. intro H.
    assert (Rabs th <= sqrt (v0*v0 + v1*v1 + th*th)).
    { rewrite <- sqrt_sq_abs. apply sqrt_le_1_alt. nra. }
    lra. }
  cbn [ltb Rops]. apply Rltb_false in Hn. rewrite Hn.
  unfold unittwist2_norm, iszero. cbn [ltb abs_ Rops].
  rewrite Rltb_false_of by lra.
  unfold trexp2_unit, rodrigues1_with, iszerovec1, norm1. cbn [div mul sqrt_ ltb Rops].
  assert (Hs1 : sqrt (th / Rabs th * (th / Rabs th)) = 1).
  { assert (Habs2 : Rabs th * Rabs th = th*th) by (rewrite <- Rabs_mult; apply Rabs_pos_eq; nra).
    replace (th / Rabs th * (th / Rabs th)) with ((th*th)/(Rabs th * Rabs th)) by (field; lra).
    rewrite Habs2. replace (th*th/(th*th)) with 1 by (field; assumption). apply sqrt_1. }
  rewrite Hs1, Rltb_false_of by lra.
  f_equal. unfold rodrigues1_th, Vmat2. cbn [cos_ sin_ Rops].
  destruct (Rle_dec 0 th) as [P|N].
  - rewrite (Rabs_pos_eq th) by lra. replace (th/th) with 1 by (field; lra).
    generalize (cos th) (sin th). intros c s. c03_simpl. tuple_eq ltac:(try (field; lra)).
  - rewrite (Rabs_left th) by lra. replace (th / - th) with (-1) by (field; lra).
    rewrite cos_neg, sin_neg. generalize (cos th) (sin th). intros c s. c03_simpl. tuple_eq ltac:(try (field; lra)).
Qed.

(* the two half-angle identities behind V2(theta)/theta . G(theta) = I, with a = b/tan b, b = theta/2 *)
Lemma half_angle_G th : th <> 0 -> - PI < th < PI ->
  let b := th/2 in let a := b / tan b in
  sin th * a + (1 - cos th) * b = th /\ sin th * b - (1 - cos th) * a = 0.
Proof.
  intros H0 Hr. cbv zeta. pose proof PI_RGT_0.
  assert (Hc : 0 < cos (th/2)) by (apply cos_gt_0; lra).
  assert (Hs : sin (th/2) <> 0).
  { destruct (Rlt_dec 0 th).
    - assert (0 < sin (th/2)) by (apply sin_gt_0; lra). lra.
    - assert (sin (th/2) < 0) by (apply sin_lt_0_var; lra). lra. }
  pose proof (cs_unit (th/2)) as Hu.
  replace (sin th) with (2 * sin (th/2) * cos (th/2)) by (rewrite <- sin_2a; f_equal; field).
  replace (cos th) with (1 - 2 * sin (th/2) * sin (th/2)) by (rewrite <- cos_2a_sin; f_equal; field).
  unfold tan. set (sb := sin (th/2)) in *. set (cb := cos (th/2)) in *. clearbody sb cb.
  assert (E : cb*cb = 1 - sb*sb) by lra.
  split.
  - transitivity (th * (cb*cb + sb*sb)); [field; lra | rewrite E; ring].
  - field. lra.
Qed.

(* with them [[s, -(1-c)], [1-c, s]]/th and [[a, b], [-b, a]] are inverse to each other *)
Lemma V2_G_inverse s c a b th x y : th <> 0 -> s*a + (1 - c)*b = th -> s*b - (1 - c)*a = 0 ->
  (s*(a*x + b*y) - (1 - c)*(- b*x + a*y))/th = x /\ ((1 - c)*(a*x + b*y) + s*(- b*x + a*y))/th = y.
Proof.
  intros Hth G1 G2. split.
  - transitivity (((s*a + (1 - c)*b)*x + (s*b - (1 - c)*a)*y)/th); [field; assumption | rewrite G1, G2; field; assumption].
  - transitivity ((- (s*b - (1 - c)*a)*x + (s*a + (1 - c)*b)*y)/th); [field; assumption | rewrite G1, G2; field; assumption].
Qed.

(* exp2(log2 T) = T for T in SE(2), outside the identity band, rotation angle above the unit threshold and not a half turn
   (over R, tan(PI/2) is 1/0: the model's a = b/tan b is unspecified exactly at theta = +-PI; in floats tan(pi/2) ~ 1.6e16) *)
Theorem explog2_se2 K (Tm : M33 R) :
  thr_ok_2d K -> SE2 Tm -> iseye33 Rops K Tm = false ->
  let th := (let '((t00,_,_),(t10,_,_),_) := Tm in atan2 t10 t00) in
  thv Rops (k_unit K) < Rabs th -> Rabs th < PI ->
  trexp2_se2 Rops K (trlog2_se2_tw Rops K Tm) = Ok Tm.
Proof.
  intros HK [HSO Hlast] Heye. destruct Tm as [[[[t00 t01] tx] [[t10 t11] ty]] [[z0 z1] z2]]. unfold M33, V3 in *.
  cbv zeta. intros Hth HthP.
  cbn in Hlast. injection Hlast as -> -> ->.
  cbn [t2r2] in HSO. pose proof (SO2_columns _ _ _ _ HSO) as (E1 & E2 & E3).
  assert (Hu : t00*t00 + t10*t10 = 1) by exact E3.
  destruct (cs_atan2_unit t00 t10 Hu) as [Hc Hs].
  unfold trlog2_se2_tw. rewrite Heye. unfold trlog2_theta. cbn [atan2_ Rops].
  set (th := atan2 t10 t00) in *.
  pose proof (above_unit_neq_0 K th (proj1 HK) Hth) as Hth0.
  cbn [eqb zero Rops]. rewrite Reqb_false_of by exact Hth0.
  cbn [div mul add neg tan_ Rops]. change (two Rops) with (1+1).
  replace (th/(1+1)) with (th/2) by field.
  rewrite trexp2_se2_value by assumption.
  assert (HrP : - PI < th < PI) by (destruct (Rabs_def2 _ _ HthP); split; assumption).
  destruct (half_angle_G th Hth0 HrP) as [G1 G2]. cbv zeta in G1, G2.
  set (b := th/2) in *. set (a := b / tan b) in *. rewrite Hc, Hs. rewrite Hc, Hs in G1, G2.
  destruct (V2_G_inverse t10 t00 a b th tx ty Hth0 G1 G2) as [X Y].
  rewrite X, Y, E2, <- E1. reflexivity.
Qed.

(* log2(exp2 S) = S for S = (v, theta), |theta| above the unit threshold and below PI, when the result is outside the identity band *)
Theorem logexp2_se2 K v0 v1 th Tm :
  thr_ok_2d K -> thv Rops (k_unit K) < Rabs th -> Rabs th < PI ->
  trexp2_se2 Rops K (v0, v1, th) = Ok Tm -> iseye33 Rops K Tm = false ->
  trlog2_se2_tw Rops K Tm = (v0, v1, th).
Proof.
  intros HK Hth HthP Hexp Heye. rewrite trexp2_se2_value in Hexp by assumption. injection Hexp as <-.
  unfold trlog2_se2_tw. rewrite Heye. unfold trlog2_theta. cbn [atan2_ Rops].
  assert (HrP : - PI < th < PI) by (destruct (Rabs_def2 _ _ HthP); split; assumption).
  rewrite atan2_sin_cos by lra.
  pose proof (above_unit_neq_0 K th (proj1 HK) Hth) as Hth0.
  cbn [eqb zero Rops]. rewrite Reqb_false_of by exact Hth0.
  cbn [div mul add neg tan_ Rops]. change (two Rops) with (1+1). replace (th/(1+1)) with (th/2) by field.
  destruct (half_angle_G th Hth0 HrP) as [G1 G2]. cbv zeta in G1, G2.
  set (b := th/2) in *. set (a := b / tan b) in *. clearbody a b.
  set (s := sin th) in *. set (c := cos th) in *. clearbody s c.
  destruct (V2_G_inverse s c a b th v0 v1 Hth0 G1 G2) as [X Y].
  apply f_equal2; [apply f_equal2|reflexivity].
  - etransitivity; [|exact X]. field. assumption.
  - etransitivity; [|exact Y]. field. assumption.
Qed.

(* SO(2): log2 then exp2, and exp2 then log2 *)
Theorem explog2_so2 K (Rm : M22 R) :
  thr_ok K -> SO2 Rm -> thv Rops (k_unit K) < Rabs (trlog2_so2 Rops Rm) ->
  trexp2_so2 Rops K (trlog2_so2 Rops Rm) = Ok Rm.
Proof.
  intros HK HSO Hth. destruct Rm as [[a b] [c d]]. pose proof (SO2_columns _ _ _ _ HSO) as (E1 & E2 & E3).
  unfold trlog2_so2, trlog2_theta in *. cbn [atan2_ Rops] in *.
  destruct (cs_atan2_unit a c E3) as [Hc Hs]. set (th := atan2 c a) in *.
  pose proof (thv_zero_unit K HK) as Hzu. pose proof (above_unit_neq_0 K th HK Hth) as Hth0.
  unfold trexp2_so2, rodrigues1, iszerovec1, unitvec_norm1, norm1. cbn [mul sqrt_ ltb leb div Rops].
  rewrite sqrt_sq_abs, Rltb_false_of, Rleb_true_of by lra.
  f_equal. unfold rodrigues1_th. cbn [cos_ sin_ Rops].
  destruct (Rle_dec 0 th) as [P|N].
  - rewrite (Rabs_pos_eq th) by lra. replace (th/th) with 1 by (field; lra). rewrite Hc, Hs, E1, E2. c03_simpl. tuple_eq ltac:(ring).
  - rewrite (Rabs_left th) by lra. replace (th / - th) with (-1) by (field; lra). rewrite cos_neg, sin_neg, Hc, Hs, E1, E2.
    c03_simpl. tuple_eq ltac:(ring).
Qed.

(* log(exp S) = S on every non-identity branch *)
Theorem logexp_SO3 K (u : V3 R) th :
  thr_ok2 K -> normsq3 Rops u = 1 -> 0 < th < PI -> thv Rops (k_unit K) < th ->
  trlog_so3_branch Rops K (rodrigues_th Rops u th) <> BrEye ->
  trlog_so3_tw Rops K (rodrigues_th Rops u th) = vscale3 Rops th u.
Proof.
  intros HK Hu Hth Hthu Hbr. pose proof (proj1 HK) as HK1.
  assert (Hs : 0 < sin th) by (apply sin_gt_0; lra).
  destruct (log_of_rodrigues u th Hu Hth) as (Hli & Hst & Hc & Hlt). cbv zeta in *.
  set (Rm := rodrigues_th Rops u th) in *.
  assert (HR : SO3 Rm) by (apply rodrigues_cs_SO3; [exact Hu | apply cs_unit]).
  destruct u as [[u0 u1] u2].
  clearbody Rm.
  destruct (explog_SO3 K Rm HK HR Hbr) as (Hexp & Hnorm & _); [rewrite Hlt; exact Hthu|].
  rewrite Hlt in Hnorm.
  destruct (trlog_so3_tw Rops K Rm) as [[L0 L1] L2] eqn:HL.
  destruct (trexp_so3_by_norm K L0 L1 L2 th HK1 Hnorm Hthu) as [_ E']. rewrite E' in Hexp. injection Hexp as Hexp.
  assert (E : log_li Rops (rodrigues_th Rops (L0/th, L1/th, L2/th) th) = log_li Rops Rm) by (rewrite Hexp; reflexivity).
  unfold rodrigues_th in E at 1. rewrite log_li_rodrigues, Hli in E. cbn [sin_ Rops] in E. c03_simpl.
  injection E as E0 E1 E2.
  assert (Q : forall a b, sin th * (a/th) = sin th * b -> a = th*b).
  { intros a b H. apply Rmult_eq_reg_l in H; [|lra]. rewrite <- H. field. lra. }
  repeat apply f_equal2; apply Q; assumption.
Qed.

Lemma vex3_skew3 (x : V3 R) : vex3 Rops (skew3 Rops x) = x.
Proof. destruct x as [[a b] c]. c03_simpl. tuple_eq ltac:(field). Qed.

(* the matrix form of the SO(3) log is the skew matrix of the twist form *)
Lemma trlog_so3_mat_skew K (Rm : M33 R) : log_st Rops Rm <> 0 \/ trlog_so3_branch Rops K Rm <> BrGen ->
  trlog_so3_mat Rops K Rm = skew3 Rops (trlog_so3_tw Rops K Rm).
Proof.
  intros H. unfold trlog_so3_mat, trlog_so3_tw. destruct (trlog_so3_branch Rops K Rm) eqn:Hb.
  - c03_simpl. tuple_eq ltac:(ring).
  - reflexivity.
  - destruct H as [H|H]; [|contradiction]. rewrite st_is_zero_false by exact H. unfold log_general. revert H.
    generalize (log_st Rops Rm) (log_theta Rops Rm). intros st th H.
    destruct Rm as [[[[r00 r01] r02] [[r10 r11] r12]] [[r20 r21] r22]]. c03_simpl. tuple_eq ltac:(field; exact H).
Qed.

Lemma mv33_scale_in (A : M33 R) (k : R) (t : V3 R) :
  mv33 Rops A (let '(t0,t1,t2) := t in (t0/k, t1/k, t2/k)) = mv33 Rops (mscale33 Rops (1/k) A) t.
Proof. destruct_tuples. c03_simpl. tuple_eq ltac:(unfold Rdiv; ring). Qed.

Theorem explog_SE3 K (Tm : M44 R) :
  thr_ok2 K -> SE3 Tm -> trlog_se3_branch Rops K Tm = BrRot ->
  thv Rops (k_unit K) < log_theta Rops (t2r3 Tm) -> log_theta Rops (t2r3 Tm) < PI ->
  trexp_se3 Rops K (trlog_se3_tw Rops K Tm) = Ok Tm.
Proof.
  intros HK HT Hbr Hthu HthP. pose proof (proj1 HK) as HK1. pose proof HK1 as (Kz & Kzu & Kh & Ke & Kiu & Kz1 & Kiu1).
  pose proof eps_pos as He.
  rewrite (SE3_decompose Tm HT) at 2. destruct HT as [HR _].
  unfold trlog_se3_tw. rewrite Hbr.
  assert (Hne : trlog_so3_branch Rops K (t2r3 Tm) <> BrEye).
  { unfold trlog_se3_branch in Hbr. destruct (iseye44 Rops K Tm); [discriminate|].
    destruct (iseye33 Rops K (t2r3 Tm)) eqn:He3; [discriminate|]. unfold trlog_so3_branch. rewrite He3.
    destruct (ltb Rops _ _); discriminate. }
  set (Rm := t2r3 Tm) in *. set (t := transl3 Tm). clearbody Rm t.
  destruct (explog_SO3 K Rm HK HR Hne Hthu) as (Hexp & Hnorm & Hth0 & _).
  assert (Hmat : trlog_so3_mat Rops K Rm = skew3 Rops (trlog_so3_tw Rops K Rm)).
  { apply trlog_so3_mat_skew. destruct (trlog_so3_branch Rops K Rm) eqn:Hb; [contradiction | right; discriminate | left].
    assert (0 < log_st Rops Rm) by (apply (general_st_pos K); assumption). lra. }
  rewrite Hmat, vex3_skew3, Hnorm. cbn [eqb zero Rops]. rewrite Reqb_false_of by lra.
  set (th := log_theta Rops Rm) in *. clearbody th.
  destruct (trlog_so3_tw Rops K Rm) as [[L0 L1] L2].
  destruct (trexp_so3_by_norm K L0 L1 L2 th HK1 Hnorm Hthu) as [Hun Eu]. rewrite Eu in Hexp. injection Hexp as HRot.
  (* the skew matrix is theta K(u) *)
  assert (HS : skew3 Rops (L0, L1, L2) = mscale33 Rops th (skew3 Rops (L0/th, L1/th, L2/th))).
  { c03_simpl. tuple_eq ltac:(field; lra). }
  rewrite HS.
  set (G := Ginv Rops (mscale33 Rops th (skew3 Rops (L0/th, L1/th, L2/th))) th).
  destruct (mv33 Rops G t) as [[v0 v1] v2] eqn:Hv.
  unfold v6, trexp_se3, iszerovec6.
  assert (Hn6 : ~ norm6 Rops (v0, v1, v2, L0, L1, L2) < thv Rops (k_zero K)).
  { pose proof (norm3_sq (L0,L1,L2)) as Hsq. rewrite Hnorm in Hsq. rewrite thv_R in *. c03_simpl. intro H.
    assert (th <= sqrt (v0*v0 + v1*v1 + v2*v2 + L0*L0 + L1*L1 + L2*L2)).
    { rewrite <- (sqrt_square th) at 1 by lra. apply sqrt_le_1_alt. nra. }
    nra. }
  cbn [ltb Rops]. apply Rltb_false in Hn6. rewrite Hn6.
  unfold unittwist_norm, iszerovec3. rewrite Hnorm. cbn [ltb Rops].
  rewrite Rltb_false_of by (pose proof (thv_zero_unit K HK1); lra).
  cbn [div Rops]. f_equal. unfold trexp_unit. rewrite rodrigues3_with_unit by assumption. rewrite HRot.
  f_equal.
  pose proof (mv33_scale_in (Vmat Rops (L0/th, L1/th, L2/th) th) th (v0,v1,v2)) as E. cbv beta iota zeta in E. rewrite E.
  rewrite <- Hv, <- mv33_mmul. unfold G. rewrite V_Ginv_inverse by (try assumption; lra). apply mv33_I.
Qed.

(* the so(3) exponential is total (fix 4dbd011: unitvec_norm tests n >= k_unit eps) *)
Theorem trexp_so3_total K (w : V3 R) :
  thr_ok K -> IZR (k_unit K) <= IZR (k_zero K) -> exists Rm, trexp_so3 Rops K w = Ok Rm /\ SO3 Rm.
Proof.
  intros HK Hle. pose proof HK as (Kz & Kzu & _). pose proof eps_pos as He.
  assert (exists Rm, trexp_so3 Rops K w = Ok Rm) as [Rm E].
  { unfold trexp_so3, rodrigues3, iszerovec3. cbn [ltb Rops]. destruct (Rltb (norm3 Rops w) (thv Rops (k_zero K))) eqn:Z.
    - eexists; reflexivity.
    - apply Rltb_false in Z. unfold unitvec_norm3. cbv zeta. cbn [leb Rops].
      rewrite Rleb_true_of; [destruct w as [[w0 w1] w2]; eexists; reflexivity|].
      rewrite !thv_R in *. assert (IZR (k_unit K) * eps Rops <= IZR (k_zero K) * eps Rops) by (apply Rmult_le_compat_r; lra). lra. }
  exists Rm. split; [exact E | exact (trexp_so3_in_SO3 K w Rm HK E)].
Qed.

(* Twist3.exp with a vector theta on one twist *)
(* unit rotational twist: element t is the unit-twist exponential at t = trexp(S, t) *)
Theorem twist3_exp_elem_unit K v0 v1 v2 w0 w1 w2 t :
  thr_ok K -> normsq3 Rops (w0,w1,w2) = 1 -> thv Rops (k_zero K) <= t ->
  twist3_exp_elem Rops K (v0,v1,v2,w0,w1,w2) t = Ok (trexp_unit Rops K (v0,v1,v2,w0,w1,w2) t) /\
  twist3_exp_elem Rops K (v0,v1,v2,w0,w1,w2) t = trexp_se3_th Rops K (v0,v1,v2,w0,w1,w2) t.
Proof.
  intros HK Hw Ht. destruct (trexp_se3_scaled_unit K v0 v1 v2 w0 w1 w2 t HK Hw Ht) as [E1 E2].
  unfold twist3_exp_elem, scale6. cbv beta iota. cbn [mul Rops].
  replace (v0*t, v1*t, v2*t, w0*t, w1*t, w2*t) with (t*v0, t*v1, t*v2, t*w0, t*w1, t*w2) by (tuple_eq ltac:(ring)).
  rewrite E1, E2. split; reflexivity.
Qed.

(* prismatic twist (w = 0, any length n of v): element t > 0 is the translation by t v -- never the identity *)
Theorem twist3_exp_elem_prismatic K v0 v1 v2 t :
  thr_ok K -> 0 < t -> thv Rops (k_zero K) <= t * norm3 Rops (v0,v1,v2) ->
  twist3_exp_elem Rops K (v0,v1,v2,0,0,0) t = Ok (rt2tr3 Rops (I33 Rops) (v0*t, v1*t, v2*t)).
Proof.
  intros HK Ht Hn. pose proof HK as (Kz & Kzu & Kh & Ke & Kiu & Kz1 & Kiu1). pose proof eps_pos as He.
  rewrite thv_R in Hn.
  assert (Hkz : 0 < IZR (k_zero K) * eps Rops) by (apply Rmult_lt_0_compat; lra).
  set (n := norm3 Rops (v0,v1,v2)) in *.
  assert (Hn0 : 0 < n). { destruct (Rlt_dec 0 n); [assumption|exfalso]. assert (t*n <= 0) by nra. lra. }
  assert (Hnn : n*n = v0*v0 + v1*v1 + v2*v2) by (unfold n; c03_simpl; apply sqrt_sqrt; nra).
  assert (Hs : norm3 Rops (v0*t, v1*t, v2*t) = t*n).
  { c03_simpl. replace (_ + _ + _) with ((t*n)*(t*n)) by (transitivity (t*t*(v0*v0 + v1*v1 + v2*v2)); [rewrite <- Hnn; ring | ring]). apply sqrt_square. nra. }
  unfold twist3_exp_elem, scale6. cbv beta iota. cbn [mul Rops].
  replace (0*t) with 0 by ring.
  unfold trexp_se3, iszerovec6.
  assert (H6 : norm6 Rops (v0*t, v1*t, v2*t, 0, 0, 0) = t*n).
  { c03_simpl. replace (_ + _ + _ + _ + _ + _) with ((t*n)*(t*n)) by (transitivity (t*t*(v0*v0 + v1*v1 + v2*v2)); [rewrite <- Hnn; ring | ring]). apply sqrt_square. nra. }
  rewrite H6. cbn [ltb Rops]. rewrite Rltb_false_of by (rewrite thv_R; lra).
  unfold unittwist_norm, iszerovec3.
  rewrite norm3_0.
  cbn [ltb Rops]. rewrite Rltb_true_of by (rewrite thv_R; lra).
  rewrite Hs. cbn [div zero Rops]. replace (0/(t*n)) with 0 by (field; nra).
  f_equal. rewrite trexp_unit_prismatic by exact HK. f_equal. tuple_eq ltac:(field; nra).
Qed.

(* the whole vector-theta branch on a unit rotational twist *)
Theorem twist3_exp_vec_unit K (tw : V6 R) (thetas : list R) :
  thr_ok K -> (let '(_,_,_,w0,w1,w2) := tw in normsq3 Rops (w0,w1,w2) = 1) ->
  Forall (fun t => thv Rops (k_zero K) <= t) thetas ->
  twist3_exp_vec Rops K tw thetas = map (fun t => Ok (trexp_unit Rops K tw t)) thetas /\
  twist3_exp_vec Rops K tw thetas = map (trexp_se3_th Rops K tw) thetas.
Proof.
  intros HK Hw Hall. destruct tw as [[[[[v0 v1] v2] w0] w1] w2]. unfold twist3_exp_vec.
  split; apply map_ext_in; intros t Hin; rewrite Forall_forall in Hall;
    destruct (twist3_exp_elem_unit K v0 v1 v2 w0 w1 w2 t HK Hw (Hall t Hin)) as [E1 E2]; assumption.
Qed.
