(* A rigid motion acting on points, p |-> R p + t ([pt3], [pt2] of Model/C16_ref.v): it is an action of the
   matrix product, differences of images are rotated differences, so distances and oriented volumes are kept. *)
From Coq Require Import Reals.
From SM Require Import Base.Ops Base.Lin Base.RInst Base.RLin Model.C16_ref.
Open Scope R_scope.

Lemma pt3_rt (Rm : M33 R) (t p : V3 R) : pt3 Rops (rt2tr3 Rops Rm t) p = vadd3 Rops (mv33 Rops Rm p) t.
Proof. unfold pt3. lin_ring. Qed.
Lemma pt3_I (p : V3 R) : pt3 Rops (I44 Rops) p = p.
Proof. unfold pt3. lin_ring. Qed.
Lemma pt3_mmul44 (A B : M44 R) (p : V3 R) : lastrow4 B = (0,0,0,1) ->
  pt3 Rops (mmul44 Rops A B) p = pt3 Rops A (pt3 Rops B p).
Proof. intros H. destruct_tuples. injection H as -> -> -> ->. unfold pt3. lin_ring. Qed.
Lemma pt3_sub (X : M44 R) (p q : V3 R) :
  vsub3 Rops (pt3 Rops X p) (pt3 Rops X q) = mv33 Rops (t2r3 X) (vsub3 Rops p q).
Proof. unfold pt3. generalize (t2r3 X) (transl3 X). lin_ring. Qed.

Lemma SE3_pt3_inverse (X : M44 R) (p : V3 R) : SE3 X -> pt3 Rops (trinv_ref X) (pt3 Rops X p) = p.
Proof. intros HX. rewrite <- pt3_mmul44 by apply HX. rewrite (SE3_inv_l X HX). apply pt3_I. Qed.
Lemma SE3_pt3_dot (X : M44 R) (o p q : V3 R) : SE3 X ->
  dot3 Rops (vsub3 Rops (pt3 Rops X p) (pt3 Rops X o)) (vsub3 Rops (pt3 Rops X q) (pt3 Rops X o))
  = dot3 Rops (vsub3 Rops p o) (vsub3 Rops q o).
Proof. intros [HR _]. rewrite !pt3_sub. apply SO3_dot, HR. Qed.
Lemma SE3_pt3_det (X : M44 R) (o p q r : V3 R) : SE3 X ->
  det33 Rops (vsub3 Rops (pt3 Rops X p) (pt3 Rops X o), vsub3 Rops (pt3 Rops X q) (pt3 Rops X o),
              vsub3 Rops (pt3 Rops X r) (pt3 Rops X o))
  = det33 Rops (vsub3 Rops p o, vsub3 Rops q o, vsub3 Rops r o).
Proof. intros [HR _]. rewrite !pt3_sub, det33_mv33, (SO3_det _ HR). ring. Qed.

(* the planar case *)
Lemma pt2_I (p : V2 R) : pt2 Rops (I33 Rops) p = p.
Proof. unfold pt2. lin_ring. Qed.
Lemma pt2_mmul33 (A B : M33 R) (p : V2 R) : lastrow3 B = (0,0,1) ->
  pt2 Rops (mmul33 Rops A B) p = pt2 Rops A (pt2 Rops B p).
Proof. intros H. destruct_tuples. injection H as -> -> ->. unfold pt2. lin_ring. Qed.
Lemma pt2_sub (X : M33 R) (p q : V2 R) :
  vsub2 Rops (pt2 Rops X p) (pt2 Rops X q) = mv22 Rops (t2r2 X) (vsub2 Rops p q).
Proof. unfold pt2. generalize (t2r2 X) (transl2 X). lin_ring. Qed.
Lemma SE2_pt2_inverse (X : M33 R) (p : V2 R) : SE2 X -> pt2 Rops (RLin.trinv2_ref X) (pt2 Rops X p) = p.
Proof. intros HX. rewrite <- pt2_mmul33 by apply HX. rewrite (SE2_inv_l X HX). apply pt2_I. Qed.
Lemma SE2_pt2_dot (X : M33 R) (o p q : V2 R) : SE2 X ->
  dot2 Rops (vsub2 Rops (pt2 Rops X p) (pt2 Rops X o)) (vsub2 Rops (pt2 Rops X q) (pt2 Rops X o))
  = dot2 Rops (vsub2 Rops p o) (vsub2 Rops q o).
Proof. intros [HR _]. rewrite !pt2_sub. apply SO2_dot, HR. Qed.
Lemma SE2_pt2_det (X : M33 R) (o p q : V2 R) : SE2 X ->
  det22 Rops (vsub2 Rops (pt2 Rops X p) (pt2 Rops X o), vsub2 Rops (pt2 Rops X q) (pt2 Rops X o))
  = det22 Rops (vsub2 Rops p o, vsub2 Rops q o).
Proof. intros [HR _]. rewrite !pt2_sub, det22_mv22, (SO2_det _ HR). ring. Qed.
