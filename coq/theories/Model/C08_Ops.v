(* C08 -- operator type-safety: a model of Python's binary-operator protocol and of the operator methods
   of spatialmath's 16 public classes, as decision functions over operand KINDS (no numbers, no Reals).

   What is generated and what is hand-written
   -------------------------------------------
   * generated on every run by reflection (gen/Hierarchy_C08.v, a value of type [hier]):
       the MRO of every public class, which class of the MRO defines which operator dunder
       (so method resolution is computed HERE, by [owner], from the regenerated tables),
       and the class attributes the dispatch code reads (N, isSO, isSE, element shape);
   * hand-written (this file): the protocol ([arith], [richcmp]) transcribed from CPython's
       binary_op1 / slot_nb_* / do_richcompare, and one decision function per operator method,
       transcribed from the method bodies of /repo (file:line given at each).  These are tied to the
       implementation by running BOTH on every cell of the finite table on every run (props/C08.py).

   Every function is total; [Unmodelled] is an explicit outcome for branches this model does not
   claim to know (never reached on the enumerated table: theorem C08_model_total). *)
From Coq Require Import List Bool Arith.
Import ListNotations.

Inductive cls := SO2 | SE2 | SO3 | SE3 | Quaternion | UnitQuaternion | Twist2 | Twist3 | Plucker
  | SpatialVelocity | SpatialAcceleration | SpatialForce | SpatialMomentum | SpatialInertia
  | DualQuaternion | UnitDualQuaternion.
(* abstract / library bases that occur in the MROs and supply operator methods *)
Inductive bcls := SMPose | SMTwist | SpatialVector | SpatialM6 | SpatialF6 | SMUserList | UserList | PyObject.
Inductive pyc := C (c : cls) | B (b : bcls).

Inductive op := Mul | Div | Add | Sub | Pow | MatMul | Eq | Ne | Xor | Or.
(* method names looked up through the MRO: __op__, __rop__ and the in-place __iop__ *)
Inductive meth := Fwd (o : op) | Rev (o : op) | Inp (o : op).

Scheme Equality for cls.
Scheme Equality for bcls.
Scheme Equality for pyc.
Scheme Equality for op.
Scheme Equality for meth.

Definition all_cls : list cls := [SO2; SE2; SO3; SE3; Quaternion; UnitQuaternion; Twist2; Twist3; Plucker;
  SpatialVelocity; SpatialAcceleration; SpatialForce; SpatialMomentum; SpatialInertia; DualQuaternion; UnitDualQuaternion].
Definition all_ops : list op := [Mul; Div; Add; Sub; Pow; MatMul; Eq; Ne; Xor; Or].
Definition arith_ops : list op := [Mul; Div; Add; Sub; Pow; MatMul].
Definition arith_op (o : op) : bool := match o with Mul | Div | Add | Sub | Pow | MatMul => true | _ => false end.

Record hier := {
  mro : cls -> list pyc;            (* cls.__mro__, restricted to the classes named above, in order *)
  defines : pyc -> list meth;       (* names in that class's own __dict__ *)
  poseN : cls -> nat;               (* .N of a pose class (0 otherwise) *)
  isSE : cls -> bool;
  isSO : cls -> bool;
  eshape : cls -> list nat          (* shape of one element of .data *)
}.

Section Model.
Variable H : hier.

Definition isinst (c : cls) (k : pyc) : bool := existsb (pyc_beq k) (mro H c).
Definition owner (c : cls) (m : meth) : option pyc :=
  find (fun k => existsb (meth_beq m) (defines H k)) (mro H c).
Definition strict_subclass (l r : cls) : bool := isinst l (C r) && negb (cls_beq l r).
Definition is_seq (c : cls) : bool := isinst c (B UserList).      (* has __len__/__iter__, .data *)
Definition is_pose (c : cls) : bool := isinst c (B SMPose).
Definition opt_pyc_beq (a b : option pyc) : bool :=
  match a, b with Some x, Some y => pyc_beq x y | None, None => true | _, _ => false end.

(* KSeq tup m: a plain Python list (tup = false) or tuple (tup = true) of m numbers -- an array-LIKE vector operand *)
Inductive kind := Obj (c : cls) | KFloat | KInt | KArr (s : list nat) | KSeq (tup : bool) (m : nat).
Definition is_scalar (k : kind) : bool := match k with KFloat | KInt => true | _ => false end.

Inductive rkind := RObj (c : cls) | RArray | RArrayList | RBool | RBoolList | RBoolArray | RScalar | RObjArray.
(* Computed: freshly computed elements; DefaultIdentity: the default-constructed object of the class;
   ForeignElements: holds elements of the other operand (of another class / an array) or invalid ones;
   ListOp: inherited list concatenation / repetition of the operands' own elements *)
Inductive prov := Computed | DefaultIdentity | ForeignElements | ListOp.
Inductive outcome := Value (r : rkind) (p : prov) | Raise | ReturnsNone | Unmodelled.
Inductive mres := Out (o : outcome) | NotImpl.

Scheme Equality for list.
Definition shape_beq := list_beq nat Nat.eqb.
Scheme Equality for rkind.
Scheme Equality for prov.
Scheme Equality for outcome.

(* NumPy broadcasting of two shapes (aligned from the right) *)
Fixpoint bcast_rev (a b : list nat) : bool :=
  match a, b with
  | x :: a', y :: b' => ((x =? y) || (x =? 1) || (y =? 1)) && bcast_rev a' b'
  | _, _ => true
  end.
Definition bcast (a b : list nat) : bool := bcast_rev (rev a) (rev b).
Definition matmul_ok (a b : list nat) : bool :=
  match a, b with [_; k], [k'; _] => k =? k' | _, _ => false end.
(* base.isvector(v, n): shape (n,), (1,n) or (n,1) *)
Definition isvector (s : list nat) (n : nat) : bool :=
  match s with [m] => m =? n | [a; b] => ((a =? 1) && (b =? n)) || ((a =? n) && (b =? 1)) | _ => false end.
Definition hd0 (s : list nat) : nat := hd 0 s.
(* shape of the broadcast of two compatible shapes *)
Fixpoint bshape_rev (a b : list nat) : list nat :=
  match a, b with
  | x :: a', y :: b' => Nat.max x y :: bshape_rev a' b'
  | [], l => l
  | l, [] => l
  end.
Definition bshape (a b : list nat) : list nat := rev (bshape_rev (rev a) (rev b)).

Definition single_or_list (n : nat) (a b : rkind) : rkind := if n =? 1 then a else b.
Definition arr (n : nat) := single_or_list n RArray RArrayList.
Definition bools (n : nat) := single_or_list n RBool RBoolList.

(* what the element-wise helpers return before any constructor is applied *)
Inductive raw := RawSingle | RawList | RawRaise.
Inductive npop := OMatMul | OElem.
Definition np_ok (f : npop) (a b : list nat) : bool := match f with OMatMul => matmul_ok a b | OElem => bcast a b end.

Section Bodies.
(* [n]: the number of values held by every library-object operand of the cell (1 = single-valued) *)
Variable n : nat.
(* the operator protocol at smaller depth, for bodies that evaluate a nested expression such as [left == right] *)
Variable rec : op -> kind -> kind -> outcome.

(* SMPose._op2 (super_pose.py, after fix 5b6b922): same-class or subclass right operand / scalar / conforming array, else
   raise ValueError('bad operands') *)
Definition op2 (lc : cls) (r : kind) (f : npop) : raw :=
  match r with
  | Obj rc => if isinst rc (C lc)
              then (if np_ok f (eshape H lc) (eshape H rc) then (if n =? 1 then RawSingle else RawList) else RawRaise)
              else RawRaise
  | KFloat | KInt => if n =? 1 then RawSingle else RawList
  | KArr s => if shape_beq s (eshape H lc) then (if n =? 1 then RawSingle else RawList) else RawRaise
  | KSeq _ _ => RawRaise                          (* neither a scalar nor an ndarray *)
  end.
(* X(raw, check=False) for a pose class *)
Definition pose_ctor (c : cls) (x : raw) : outcome :=
  match x with RawSingle | RawList => Value (RObj c) Computed | RawRaise => Raise end.
Definition raw_out (x : raw) : outcome :=
  match x with RawSingle => Value RArray Computed | RawList => Value RArrayList Computed | RawRaise => Raise end.
Definition raw_bool (x : raw) : outcome :=
  match x with RawSingle => Value RBool Computed | RawList => Value RBoolList Computed | RawRaise => Raise end.

(* SMPose.__mul__ (after fixes b2b864c, 86fcbcb): pose * pose needs operands of the SAME class *)
Definition SMPose_mul (lc : cls) (r : kind) : mres :=
  match r with
  | Obj rc => if cls_beq lc rc                          (* type(left) == type(right) *)
              then Out (pose_ctor lc (op2 lc r OMatMul))
              else NotImpl                              (* not list/ndarray, not scalar *)
  | KArr s =>
      let N := poseN H lc in
      if isvector s N then Out (Value RArray Computed)                              (* one vector, one or several poses *)
      else if (n =? 1) && (isSO H lc || isSE H lc) && (hd0 s =? N) && (2 <=? length s)
           then Out (Value RArray Computed)                                         (* one pose, N x M array: every column *)
      else if (isSO H lc || isSE H lc) && (hd0 s =? N) && (2 <=? length s) && (n =? nth 1 s 0)
           then Out (Value RArray Computed)                                         (* M poses, N x M array: column i by pose i *)
      else Out Raise                                                                (* ValueError('bad operands') *)
  | KSeq _ m => if m =? poseN H lc then Out (Value RArray Computed) else Out Raise   (* isvector(list, N); the matrix branches need an ndarray *)
  | KFloat | KInt => Out (raw_out (op2 lc r OElem))
  end.
(* SMPose.__truediv__ *)
Definition SMPose_div (lc : cls) (r : kind) : mres :=
  match r with
  | Obj rc => if cls_beq lc rc then Out (pose_ctor lc (op2 lc r OMatMul)) else Out Raise
  | KFloat | KInt => Out (raw_out (op2 lc r OElem))
  | KArr _ | KSeq _ _ => Out Raise
  end.
(* SMPose.__add__/__sub__, :1165/:1248: the helper's result is returned as it is *)
Definition SMPose_addsub (lc : cls) (r : kind) : mres := Out (raw_out (op2 lc r OElem)).
(* unary minus applied to the result of __sub__ (SMPose.__rsub__, :1264) *)
Definition neg_out (o : outcome) : outcome :=
  match o with Value RArray p => Value RArray p | Value _ _ => Raise | x => x end.
(* SMPose.__pow__, :834 *)
Definition SMPose_pow (lc : cls) (r : kind) : mres :=
  match r with KInt => Out (Value (RObj lc) Computed) | _ => Out Raise end.
(* SMPose.__eq__, :1309 *)
Definition SMPose_eq (lc : cls) (r : kind) : mres :=
  match r with
  | Obj rc => if cls_beq lc rc then Out (raw_bool (op2 lc r OElem)) else Out Raise
  | _ => Out Raise
  end.
(* SMPose.__ne__ (after fix a4db0b4):  eq = left == right;  [not x for x in eq] if eq is a list else  not eq *)
Definition SMPose_ne (lc : cls) (r : kind) : mres :=
  match rec Eq (Obj lc) r with
  | Value RBoolList p => Out (Value RBoolList p)
  | Value RBool p => Out (Value RBool p)
  | Raise => Out Raise
  | _ => Out Unmodelled
  end.

(* SMUserList.binop, smuserlist.py:568-597, for operands of equal length n: needs len(right) unless right is a scalar *)
Definition binop_ok (r : kind) : bool :=
  match r with Obj rc => is_seq rc | KFloat | KInt => true | KArr _ | KSeq _ _ => false end.

(* Quaternion.__mul__, quaternion.py:546-556 *)
Definition Quaternion_mul (lc : cls) (r : kind) : mres :=
  match r with
  | Obj rc => if isinst rc (C lc) then Out (Value (RObj Quaternion) Computed) else Out Raise
  | KFloat | KInt => Out (Value (RObj Quaternion) Computed)
  | KArr _ | KSeq _ _ => Out Raise
  end.
(* Quaternion.__rmul__ (after fix 1dd7b75):  if not isscalar(left): raise ValueError;  Quaternion([left * q._A for q in right]) *)
Definition Quaternion_rmul (sc : cls) (l : kind) : mres :=
  match l with
  | KFloat | KInt => Out (Value (RObj Quaternion) Computed)
  | _ => Out Raise
  end.
(* Quaternion.__add__/__sub__, :757/:818:  assert isinstance(left, type(right)) *)
Definition Quaternion_addsub (lc : cls) (r : kind) : mres :=
  match r with
  | Obj rc => if isinst lc (C rc) then Out (Value (RObj Quaternion) Computed) else Out Raise
  | _ => Out Raise
  end.
(* Quaternion.__pow__, :647 (base.qpow insists on an int) *)
Definition Quaternion_pow (lc : cls) (r : kind) : mres :=
  match r with KInt => Out (Value (RObj lc) Computed) | _ => Out Raise end.
(* Quaternion.__eq__/__ne__, :488-490/:519-520:  assert isinstance(left, type(right)); binop(list1=False) *)
Definition Quaternion_cmp (lc : cls) (r : kind) : mres :=
  match r with
  | Obj rc => if isinst lc (C rc) then Out (Value (bools n) Computed) else Out Raise
  | _ => Out Raise
  end.
(* UnitQuaternion.__mul__, quaternion.py:1607-1640 *)
Definition UnitQuaternion_mul (lc : cls) (r : kind) : mres :=
  match r with
  | Obj rc => if isinst lc (C rc)                    (* right.__class__(left.binop(right, qqmul)) *)
              then (if cls_beq rc Quaternion || cls_beq rc UnitQuaternion then Out (Value (RObj rc) Computed) else Out Unmodelled)
              else Out Raise
  | KFloat | KInt => Out (Value (RObj Quaternion) Computed)
  | KArr s => if isvector s 3 then Out (Value RArray Computed)
              else if (n =? 1) && (hd0 s =? 3) && (2 <=? length s) then Out (Value RArray Computed)
              else if (length s =? 2) && (hd0 s =? 3) && (n =? nth 1 s 0) then Out (Value RArray Computed)   (* fix e6aec7a: N quaternions, 3 x N points *)
              else Out Raise
  | KSeq _ m => if m =? 3 then Out (Value RArray Computed) else Out Raise
  end.
(* UnitQuaternion.__truediv__, :1718-1723.  UnitQuaternion(list) validates: for a right operand that is a plain
   (non-unit) Quaternion the quotient is not unit and the constructor raises (operand values are generic). *)
Definition UnitQuaternion_div (lc : cls) (r : kind) : mres :=
  match r with
  | Obj rc => if isinst lc (C rc) then (if cls_beq lc rc then Out (Value (RObj UnitQuaternion) Computed) else Out Raise) else Out Raise
  | KFloat | KInt => Out (Value (RObj Quaternion) Computed)
  | KArr _ | KSeq _ _ => Out Raise
  end.
(* UnitQuaternion.__eq__/__ne__, :1750/:1777: no type test; base.isequal needs 4-vectors *)
Definition UnitQuaternion_cmp (lc : cls) (r : kind) : mres :=
  match r with
  | Obj rc => if is_seq rc && shape_beq (eshape H rc) [4] then Out (Value (bools n) Computed) else Out Raise
  | _ => Out Raise
  end.

(* Twist3.__mul__ (twist.py:995-1005) and Twist2.__mul__ (:1491-1501): [tw] the twist class, [se] its pose class *)
Definition Twist_mul (tw se : cls) (r : kind) : mres :=
  match r with
  | Obj rc => if isinst rc (C tw) then Out (Value (RObj tw) Computed)
              else if isinst rc (C se) then Out (Value (RObj se) Computed)
              else Out Raise
  | KFloat | KInt => Out (Value (RObj tw) Computed)
  | KArr _ | KSeq _ _ => Out Raise
  end.
(* Twist3.__rmul__ / Twist2.__rmul__ (after fixes 11978d3, d78118f):
   if isscalar(left): return TwistN([x * left for x in right.data])  else raise -- every element is scaled, whatever the length *)
Definition Twist_rmul (sc : cls) (l : kind) : mres :=
  match l with
  | KInt | KFloat => Out (Value (RObj sc) Computed)
  | _ => Out Raise
  end.
(* SMTwist.__eq__/__ne__, :265-267/:290-292 *)
Definition SMTwist_cmp (lc : cls) (r : kind) : mres :=
  match r with Obj rc => if cls_beq lc rc then Out (Value (bools n) Computed) else Out Raise | _ => Out Raise end.

(* Plucker, geom3d.py *)
Definition Plucker_mul (lc : cls) (r : kind) : mres :=                    (* :787-791: reciprocal product, uses .uw/.v *)
  match r with Obj rc => if isinst rc (C Plucker) then Out (Value RScalar Computed) else Out Raise | _ => Out Raise end.
Definition Plucker_rmul (sc : cls) (l : kind) : mres :=                   (* :810-816: only single-valued SE3 *)
  match l with Obj lc => if isinst lc (C SE3) && (n =? 1) then Out (Value (RObj Plucker) Computed) else Out Raise | _ => Out Raise end.
(* __eq__ / __ne__ (after fix 2ec0dbf): a non-Plucker operand is a TypeError, otherwise element-wise through binop(list1=False) *)
Definition Plucker_cmp (lc : cls) (r : kind) : mres :=
  match r with Obj rc => if isinst rc (C Plucker) then Out (Value (bools n) Computed) else Out Raise | _ => Out Raise end.
(* isparallel uses l2.w in np.cross: Plucker and Twist3 have a 3-vector (Twist3: one row per twist, which broadcasts); Twist2.w is a
   scalar, but for a multi-valued Twist2 it is the array of its n angular parts (fix 77cb365) -- a 3-vector exactly when n = 3 *)
Definition Plucker_or (lc : cls) (r : kind) : mres :=
  match r with
  | Obj rc => if isinst rc (C Plucker) || isinst rc (C Twist3) || (isinst rc (C Twist2) && (n =? 3)) then Out (Value RBool Computed) else Out Raise
  | _ => Out Raise
  end.
(* :630  not isparallel(l2) and abs(l1 * l2) < ...  (generic operands are not parallel, so the product is evaluated) *)
Definition Plucker_xor (lc : cls) (r : kind) : mres :=
  match Plucker_or lc r with
  | Out (Value RBool _) => match Plucker_mul lc r with Out (Value RScalar _) => Out (Value RBool Computed) | x => x end
  | x => x
  end.

(* SpatialVector, spatialvector.py *)
Definition SpatialVector_addsub (lc : cls) (r : kind) : mres :=            (* :205-210 / :228-233 *)
  match r with Obj rc => if cls_beq lc rc then Out (Value (RObj lc) Computed) else Out Raise | _ => Out Raise end.
Definition SpatialVector_rmul (sc : cls) (l : kind) : mres :=              (* :260-267: left.Ad() of a single SE3 / Twist3 *)
  match l with
  | Obj lc => if (isinst lc (C SE3) || isinst lc (C Twist3)) && (n =? 1) then Out (Value (RObj sc) Computed) else Out Raise
  | _ => Out Raise
  end.
Definition SpatialVelocity_matmul (lc : cls) (r : kind) : mres :=          (* :405 -> SpatialM6.cross :309-323, v = self.A indexed *)
  match r with
  | Obj rc => if negb (n =? 1) then Out Raise
              else if isinst rc (B SpatialM6) then Out (Value (RObj SpatialAcceleration) Computed)      (* fix 66a8f3b: any motion vector *)
              else if isinst rc (B SpatialF6) then Out (Value (RObj SpatialForce) Computed)
              else Out Raise
  | _ => Out Raise
  end.
(* :589-591 (after fix 2cebac9): SpatialInertia(left.A + right.A); for multi-valued operands .A is a list, + concatenates
   and the constructor refuses the list *)
Definition SpatialInertia_add (lc : cls) (r : kind) : mres :=
  match r with
  | Obj rc => if isinst rc (C SpatialInertia) && (n =? 1) then Out (Value (RObj SpatialInertia) Computed) else Out Raise
  | _ => Out Raise
  end.
Definition SpatialInertia_mul (lc : cls) (r : kind) : mres :=              (* :607-614: left.A @ right.A *)
  match r with
  | Obj rc => if negb (n =? 1) then Out Raise
              else if isinst rc (C SpatialAcceleration) then Out (Value (RObj SpatialForce) Computed)
              else if isinst rc (C SpatialVelocity) then Out (Value (RObj SpatialMomentum) Computed)
              else Out Raise
  | _ => Out Raise
  end.

(* DualQuaternion, DualQuaternion.py.  real part: Quaternion (UnitQuaternion for a UnitDualQuaternion); dual part: Quaternion *)
Definition real_cls (c : cls) : cls := if isinst c (C UnitDualQuaternion) then UnitQuaternion else Quaternion.
Definition is_quat_value (o : outcome) : bool :=
  match o with Value (RObj q) Computed => isinst q (C Quaternion) | _ => false end.
Definition DualQuaternion_addsub (o : op) (lc : cls) (r : kind) : mres :=    (* :157 / :174 *)
  match r with
  | Obj rc => if isinst rc (C DualQuaternion)
              then (if is_quat_value (rec o (Obj (real_cls lc)) (Obj (real_cls rc))) && is_quat_value (rec o (Obj Quaternion) (Obj Quaternion))
                    then Out (Value (RObj DualQuaternion) Computed) else Out Raise)
              else Out Raise                       (* right.real / right.dual: AttributeError; ints/floats/arrays have .real but
                                                      Quaternion + number fails its assertion *)
  | _ => Out Raise
  end.
(* :194-208 (after fix f42ba75): anything that is neither a DualQuaternion nor (for a unit one) a 3-vector is a ValueError.
   The product is a UnitDualQuaternion iff BOTH operands are (fix 56d2f84; the test used to look at left twice). *)
Definition DualQuaternion_mul (lc : cls) (r : kind) : mres :=
  match r with
  | Obj rc =>
      if isinst rc (C DualQuaternion) then
        let rr := rec Mul (Obj (real_cls lc)) (Obj (real_cls rc)) in
        let d1 := rec Mul (Obj (real_cls lc)) (Obj Quaternion) in
        let d2 := rec Mul (Obj Quaternion) (Obj (real_cls rc)) in
        if is_quat_value rr && is_quat_value d1 && is_quat_value d2 && is_quat_value (rec Add (Obj Quaternion) (Obj Quaternion))
        then (if isinst lc (C UnitDualQuaternion) && isinst rc (C UnitDualQuaternion) then Out (Value (RObj UnitDualQuaternion) Computed)
              else Out (Value (RObj DualQuaternion) Computed))
        else Out Raise
      else Out Raise
  | KArr s => if isinst lc (C UnitDualQuaternion) && isvector s 3 then Out (Value RArray Computed) else Out Raise
  | KSeq _ m => if isinst lc (C UnitDualQuaternion) && (m =? 3) then Out (Value RArray Computed) else Out Raise
  | KFloat | KInt => Out Raise
  end.

(* SMUserList (smuserlist.py, after fix ff75c13): + and * are TypeErrors unless a subclass defines them -- the list
   concatenation / repetition of collections.UserList is no longer inherited *)
Definition SMUserList_arith (sc : cls) (other : kind) : mres := Out Raise.

(* collections.UserList.__eq__ (CPython Lib/collections/__init__.py), reached through super().__eq__ *)
(* self.data == self.__cast(other) *)
Definition UserList_eq (lc : cls) (r : kind) : mres :=
  match r with
  | Obj rc => if is_seq rc
              then (if (n =? 0) then Out Unmodelled
                    else if 2 <=? fold_right Nat.mul 1 (eshape H lc) then Out Raise  (* bool(array == array): ambiguous, or shapes do not broadcast *)
                    else Out Unmodelled)
              else Out (Value RBool Computed)          (* list == object: False *)
  | KFloat | KInt => Out (Value RBool Computed)
  | KArr s => if bcast (n :: eshape H lc) s then Out (Value RBoolArray Computed) else Out Raise
  | KSeq false m => if m =? n then Out Raise              (* list == list of equal length: bool(array == number) is ambiguous *)
                    else Out (Value RBool Computed)        (* lengths differ: False without looking at the elements *)
  | KSeq true _ => Out (Value RBool Computed)              (* list == tuple: False *)
  end.
(* SMUserList.__eq__ / __ne__ (after fix fb8fbdb): two objects of the same class are compared element by element through
   binop(list1=False); anything else goes to super(): UserList.__eq__, and object.__ne__ (which inverts type(self).__eq__) *)
Definition SMUserList_eq (lc : cls) (r : kind) : mres :=
  match r with
  | Obj rc => if cls_beq lc rc then Out (Value (bools n) Computed) else UserList_eq lc r
  | _ => UserList_eq lc r
  end.
(* object.__eq__: NotImplemented for distinct objects;  object.__ne__: inverts the truth value of type(self).__eq__ *)
Definition invert_truth (m : mres) : mres :=
  match m with
  | NotImpl => NotImpl
  | Out (Value RBool p) | Out (Value RBoolList p) => Out (Value RBool p)
  | Out (Value RBoolArray _) => Out Raise
  | Out Raise => Out Raise
  | Out _ => Out Unmodelled
  end.

Definition SMUserList_ne (lc : cls) (r : kind) : mres :=
  match r with
  | Obj rc => if cls_beq lc rc then Out (Value (bools n) Computed) else invert_truth (SMUserList_eq lc r)
  | _ => invert_truth (SMUserList_eq lc r)
  end.

Definition body0 (k : pyc) (m : meth) (self : cls) (other : kind) : mres :=
  match k, m with
  | B SMPose, Fwd Mul => SMPose_mul self other
  | B SMPose, Fwd Div => SMPose_div self other
  | B SMPose, Fwd Add | B SMPose, Fwd Sub => SMPose_addsub self other
  | B SMPose, Fwd Pow => SMPose_pow self other
  | B SMPose, Fwd Eq => SMPose_eq self other
  | B SMPose, Fwd Ne => SMPose_ne self other
  | C Quaternion, Fwd Mul => Quaternion_mul self other
  | C Quaternion, Rev Mul => Quaternion_rmul self other
  | C Quaternion, Fwd Div => NotImpl                                      (* quaternion.py:701 *)
  | C Quaternion, Fwd Add | C Quaternion, Fwd Sub => Quaternion_addsub self other
  | C Quaternion, Fwd Pow => Quaternion_pow self other
  | C Quaternion, Fwd Eq | C Quaternion, Fwd Ne => Quaternion_cmp self other
  | C UnitQuaternion, Fwd Mul => UnitQuaternion_mul self other
  | C UnitQuaternion, Fwd Div => UnitQuaternion_div self other
  | C UnitQuaternion, Fwd Eq | C UnitQuaternion, Fwd Ne => UnitQuaternion_cmp self other
  | C Twist3, Fwd Mul => Twist_mul Twist3 SE3 other
  | C Twist2, Fwd Mul => Twist_mul Twist2 SE2 other
  | C Twist3, Rev Mul | C Twist2, Rev Mul => Twist_rmul self other
  | B SMTwist, Fwd Eq | B SMTwist, Fwd Ne => SMTwist_cmp self other
  | C Plucker, Fwd Mul => Plucker_mul self other
  | C Plucker, Rev Mul => Plucker_rmul self other
  | C Plucker, Fwd Eq | C Plucker, Fwd Ne => Plucker_cmp self other
  | C Plucker, Fwd Or => Plucker_or self other
  | C Plucker, Fwd Xor => Plucker_xor self other
  | B SpatialVector, Fwd Add | B SpatialVector, Fwd Sub => SpatialVector_addsub self other
  | B SpatialVector, Rev Mul => SpatialVector_rmul self other
  | C SpatialVelocity, Fwd MatMul => SpatialVelocity_matmul self other
  | C SpatialInertia, Fwd Add => SpatialInertia_add self other
  | C SpatialInertia, Fwd Mul => SpatialInertia_mul self other
  | C DualQuaternion, Fwd Add => DualQuaternion_addsub Add self other
  | C DualQuaternion, Fwd Sub => DualQuaternion_addsub Sub self other
  | C DualQuaternion, Fwd Mul => DualQuaternion_mul self other
  | B SMUserList, Fwd Add | B SMUserList, Rev Add | B SMUserList, Fwd Mul | B SMUserList, Rev Mul => SMUserList_arith self other
  | B SMUserList, Fwd Eq => SMUserList_eq self other
  | B SMUserList, Fwd Ne => SMUserList_ne self other
  | B UserList, Fwd Eq => UserList_eq self other
  | B PyObject, Fwd Eq => NotImpl
  | _, _ => Out Unmodelled
  end.
Definition call0 (k : option pyc) (m : meth) (self : cls) (other : kind) : mres :=
  match k with None => NotImpl | Some k => body0 k m self other end.
(* methods that only delegate to another method of [self], resolved through the MRO of type(self) *)
Definition body (k : pyc) (m : meth) (self : cls) (other : kind) : mres :=
  match k, m with
  | B SMPose, Rev Mul => if is_scalar other then call0 (owner self (Fwd Mul)) (Fwd Mul) self other else NotImpl   (* :1029-1032 *)
  | B SMPose, Rev Add => call0 (owner self (Fwd Add)) (Fwd Add) self other                                       (* :1181 *)
  | B SMPose, Rev Sub => match call0 (owner self (Fwd Sub)) (Fwd Sub) self other with                            (* :1264 *)
                         | Out o => Out (neg_out o) | NotImpl => Out Unmodelled end
  | C SpatialInertia, Rev Mul => call0 (owner self (Fwd Mul)) (Fwd Mul) self other                               (* spatialvector.py:630 *)
  | B PyObject, Fwd Ne => invert_truth (call0 (owner self (Fwd Eq)) (Fwd Eq) self other)
  | _, _ => body0 k m self other
  end.
Definition call (k : option pyc) (m : meth) (self : cls) (other : kind) : mres :=
  match k with None => NotImpl | Some k => body k m self other end.

Definition type_error : outcome := Raise.
Definition or_else (m : mres) (k : outcome) : outcome := match m with Out o => o | NotImpl => k end.

(* NumPy with the array on the left (ndarray.__op__) or reached as the reflected method (ndarray.__rop__): the other operand
   is coerced with np.asarray.  A UserList object is a sequence whose items are again such objects: the coercion fails
   ("setting an array element with a sequence ... exceed the maximum number of dimension").  Any other object is an
   object scalar and the operator is applied element by element, float against object. *)
Definition numpy_arith (o : op) (c : cls) (arr_left : bool) : outcome :=
  if is_seq c then Raise
  else match o with
       | MatMul => Raise
       | _ => match (if arr_left then rec o KFloat (Obj c) else rec o (Obj c) KFloat) with
              | Raise => Raise | Value _ _ => Value RObjArray Computed | _ => Unmodelled end
       end.
Definition numpy_cmp (c : cls) : outcome := if is_seq c then Raise else Value RBoolArray Computed.

(* binary_op1 + slot_nb_<op> (Objects/abstract.c, Objects/typeobject.c SLOT1BINFULL) *)
Definition arith (o : op) (l r : kind) : outcome :=
  match l, r with
  | Obj cl, Obj cr =>
      let same := cls_beq cl cr in
      let fwd := call (owner cl (Fwd o)) (Fwd o) cl r in
      let rv := call (owner cr (Rev o)) (Rev o) cr l in
      (* right operand's class is a proper subclass AND overrides the reflected method: it goes first *)
      let sub_first := negb same && isinst cr (C cl)
                       && match owner cr (Rev o) with Some x => negb (opt_pyc_beq (owner cl (Rev o)) (Some x)) | None => false end in
      if sub_first then match rv with Out x => x | NotImpl => or_else fwd type_error end
      else match fwd with
           | Out x => x
           | NotImpl => if same then type_error else or_else rv type_error
           end
  | Obj cl, KFloat | Obj cl, KInt | Obj cl, KSeq _ _ =>
      or_else (call (owner cl (Fwd o)) (Fwd o) cl r) type_error          (* float/int.__rop__(obj) is NotImplemented; list and tuple have
                                                                             no reflected numeric methods, and their sequence repeat / concat
                                                                             need an int / a list: TypeError *)
  | Obj cl, KArr _ =>
      match call (owner cl (Fwd o)) (Fwd o) cl r with Out x => x | NotImpl => numpy_arith o cl false end
  | KFloat, Obj cr | KInt, Obj cr | KSeq _ _, Obj cr =>
      or_else (call (owner cr (Rev o)) (Rev o) cr l) type_error          (* float/int.__op__(obj) is NotImplemented; list / tuple have no
                                                                             nb_ slots: the object's reflected method is asked, then sq_repeat
                                                                             / sq_concat fail with TypeError *)
  | KArr _, Obj cr => numpy_arith o cr true
  | _, _ => Unmodelled
  end.
(* do_richcompare (Objects/object.c): a proper subclass on the right goes first (no "overrides" condition);
   == and != fall back to identity, i.e. a bool for distinct objects *)
Definition richcmp (o : op) (l r : kind) : outcome :=
  let dflt := Value RBool Computed in
  match l, r with
  | Obj cl, Obj cr =>
      let fwd := call (owner cl (Fwd o)) (Fwd o) cl r in
      let rv := call (owner cr (Fwd o)) (Fwd o) cr l in
      if negb (cls_beq cl cr) && isinst cr (C cl)
      then match rv with Out x => x | NotImpl => or_else fwd dflt end
      else match fwd with Out x => x | NotImpl => or_else rv dflt end
  | Obj cl, KFloat | Obj cl, KInt | Obj cl, KSeq _ _ => or_else (call (owner cl (Fwd o)) (Fwd o) cl r) dflt
  | Obj cl, KArr _ => match call (owner cl (Fwd o)) (Fwd o) cl r with Out x => x | NotImpl => numpy_cmp cl end
  | KFloat, Obj cr | KInt, Obj cr | KSeq _ _, Obj cr => or_else (call (owner cr (Fwd o)) (Fwd o) cr l) dflt   (* list.__eq__(obj) is NotImplemented *)
  | KArr _, Obj cr => numpy_cmp cr
  | _, _ => Unmodelled
  end.
Definition step (o : op) (l r : kind) : outcome :=
  match o with Eq | Ne => richcmp o l r | _ => arith o l r end.
End Bodies.

Fixpoint binop_fuel (fuel : nat) (n : nat) (o : op) (l r : kind) : outcome :=
  match fuel with
  | 0 => Unmodelled
  | S f => step n (binop_fuel f n) o l r
  end.
(* nesting depth of the operator methods is at most 3 (DualQuaternion.* -> Quaternion.* ; SMPose.__ne__ -> == ; list * x) *)
Definition binop (n : nat) (o : op) (l r : kind) : outcome := binop_fuel 4 n o l r.

(* the __iop__ methods (every one of them delegates):
     SMPose.__imul__/__itruediv__/__iadd__/__isub__ (super_pose.py):  return left.__op__(right)      -- a direct method call
     Quaternion.__imul__, UnitQuaternion.__imul__, Quaternion.__ipow__ (quaternion.py):  return left.__mul__(right) / self.__pow__(n)
     SMUserList.__iadd__/__imul__ (smuserlist.py, fix 5371e50):  return self + other / self * other -- the whole binary protocol
   collections.UserList's own __iadd__/__imul__ (in-place list extension / repetition) are shadowed for every class; the model has
   no body for them (Unmodelled: fail closed). *)
Definition ibody (n : nat) (k : pyc) (o : op) (self : cls) (other : kind) : mres :=
  let direct := call n (binop n) (owner self (Fwd o)) (Fwd o) self other in
  match k, o with
  | B SMPose, Mul | B SMPose, Div | B SMPose, Add | B SMPose, Sub => direct
  | C Quaternion, Mul | C UnitQuaternion, Mul | C Quaternion, Pow => direct
  | B SMUserList, Add | B SMUserList, Mul => Out (binop n o (Obj self) other)
  | _, _ => Out Unmodelled
  end.
(* PyNumber_InPlace<Op> (Objects/abstract.c binary_iop1): type(x).__iop__ if there is one; NotImplemented or absent -> the binary
   protocol; the result is rebound to x.  float, int and tuple have no in-place slots.  An ndarray on the left runs the ufunc with
   out=x (same coercion of the other operand as the binary form).  A list on the left: *= goes through the binary nb_multiply
   route (the object's __rmul__) and then sq_inplace_repeat, which needs an int; += asks the object's __radd__ first and only
   then list.extend(obj), which iterates the object. *)
Definition iop (n : nat) (o : op) (l r : kind) : outcome :=
  match l, r with
  | Obj cl, _ =>
      match owner cl (Inp o) with
      | Some k => match ibody n k o cl r with Out x => x | NotImpl => binop n o l r end
      | None => binop n o l r
      end
  | KArr _, Obj cr => match numpy_arith (binop n) o cr true with Raise => Raise | _ => Unmodelled end
  | KSeq false _, Obj cr =>
      match o with
      | Add => match call n (binop n) (owner cr (Rev Add)) (Rev Add) cr l with
               | Out x => x
               | NotImpl => if is_seq cr then Unmodelled else Raise       (* list.extend(obj): obj is not iterable *)
               end
      | _ => binop n o l r
      end
  | _, _ => binop n o l r
  end.

(* Must: named by the property text -- the result is required; May: defined only by a docstring table -- if a value is
   returned it must be this one, raising is tolerated; MustRaise: every other pairing under an arithmetic operator;
   Free: == != ^ | outside the documented pairs (recorded, not constrained). *)
Inductive spec := Must (r : rkind) | May (r : rkind) | MustRaise | Free.

Definition is_quat (c : cls) := isinst c (C Quaternion).
Definition is_sv (c : cls) := isinst c (B SpatialVector).
Definition is_dq (c : cls) := isinst c (C DualQuaternion).

Definition documented (n : nat) (o : op) (l r : kind) : spec :=
  let must_single (x : rkind) := if n =? 1 then Must x else May x in
  match o, l, r with
  (* poses: super_pose.py docstring tables; property text: composition stays in the class, + - and scalar * / give arrays *)
  | Mul, Obj a, Obj b =>
      if is_pose a then (if cls_beq a b then Must (RObj a)
                         else if cls_beq a SE3 && cls_beq b Plucker then must_single (RObj Plucker)
                         else if cls_beq a SE3 && is_sv b then must_single (RObj b)
                         else MustRaise)
      else if is_quat a && is_quat b then Must (RObj (if cls_beq a UnitQuaternion && cls_beq b UnitQuaternion then UnitQuaternion else Quaternion))
      else if cls_beq a Twist3 && (cls_beq b Twist3 || cls_beq b SE3) then Must (RObj b)
      else if cls_beq a Twist2 && (cls_beq b Twist2 || cls_beq b SE2) then Must (RObj b)
      else if cls_beq a Twist3 && is_sv b then May (RObj b)                         (* spatialvector.py:249-258 table *)
      else if cls_beq a Plucker && cls_beq b Plucker then May RScalar               (* geom3d.py:775 reciprocal product *)
      else if cls_beq a SpatialInertia && cls_beq b SpatialAcceleration then May (RObj SpatialForce)
      else if cls_beq a SpatialInertia && cls_beq b SpatialVelocity then May (RObj SpatialMomentum)
      else if is_dq a && is_dq b then May (RObj (if cls_beq a UnitDualQuaternion && cls_beq b UnitDualQuaternion then UnitDualQuaternion else DualQuaternion))
      else MustRaise
  | Mul, Obj a, KArr s =>
      if is_pose a && (isvector s (poseN H a) || ((hd0 s =? poseN H a) && (length s =? 2))) then May RArray
      else if cls_beq a UnitQuaternion && (isvector s 3 || ((hd0 s =? 3) && (length s =? 2))) then May RArray
      else if cls_beq a UnitDualQuaternion && isvector s 3 then May RArray
      else MustRaise
  | Mul, Obj a, KSeq _ m =>   (* pose * vector, UnitQuaternion * 3-vector: "the vector is an array-like, a 1D NumPy array or a list/tuple" *)
      if is_pose a && (m =? poseN H a) then May RArray
      else if (cls_beq a UnitQuaternion || cls_beq a UnitDualQuaternion) && (m =? 3) then May RArray
      else MustRaise
  | Mul, Obj a, _ =>       (* scalar on the right *)
      if is_pose a then Must (arr n)
      else if is_quat a then May (RObj Quaternion)
      else if cls_beq a Twist2 || cls_beq a Twist3 then May (RObj a)
      else MustRaise
  | Mul, _, Obj b =>       (* scalar (or array) on the left *)
      if is_scalar l then
        (if is_pose b then Must (arr n)
         else if is_quat b then May (RObj Quaternion)
         else if cls_beq b Twist2 || cls_beq b Twist3 then May (RObj b)
         else MustRaise)
      else MustRaise
  | Div, Obj a, Obj b =>
      if is_pose a && cls_beq a b then Must (RObj a)
      else if cls_beq a UnitQuaternion && cls_beq b UnitQuaternion then Must (RObj UnitQuaternion)
      else MustRaise
  | Div, Obj a, _ =>
      if is_scalar r then (if is_pose a then Must (arr n) else if cls_beq a UnitQuaternion then May (RObj Quaternion) else MustRaise)
      else MustRaise
  | Add, Obj a, Obj b | Sub, Obj a, Obj b =>
      if is_pose a && cls_beq a b then Must (arr n)
      else if is_quat a && is_quat b then May (RObj Quaternion)
      else if is_sv a && cls_beq a b then May (RObj a)
      else if cls_beq a SpatialInertia && cls_beq b SpatialInertia && op_beq o Add then May (RObj SpatialInertia)
      else if is_dq a && is_dq b then May (RObj DualQuaternion)
      else MustRaise
  | Add, Obj a, KArr s | Sub, Obj a, KArr s =>
      if is_pose a && shape_beq s (eshape H a) then May (arr n) else MustRaise      (* conforming array (helper _op2) *)
  | Add, Obj a, _ | Sub, Obj a, _ =>
      if negb (is_scalar r) then MustRaise
      else if is_pose a then May (arr n) else if is_quat a then May (RObj Quaternion) else MustRaise
  | Add, _, Obj b | Sub, _, Obj b =>
      if is_scalar l && is_pose b then May (arr n) else MustRaise
  | Pow, Obj a, KInt => if is_pose a || is_quat a then May (RObj a) else MustRaise
  | MatMul, Obj a, Obj b =>
      if cls_beq a SpatialVelocity && isinst b (B SpatialM6) then May (RObj SpatialAcceleration)     (* cross(): SpatialM6 -> SpatialM6 *)
      else if cls_beq a SpatialVelocity && isinst b (B SpatialF6) then May (RObj SpatialForce)
      else MustRaise
  (* comparisons: same class -> booleans (a list for a multi-valued sequence), without raising *)
  | Eq, Obj a, Obj b | Ne, Obj a, Obj b =>
      if cls_beq a b then Must (if is_seq a then bools n else RBool)
      else if is_quat a && is_quat b then May (bools n)
      else Free
  | Xor, Obj a, Obj b | Or, Obj a, Obj b => if cls_beq a Plucker && cls_beq b Plucker then May RBool else Free
  | Eq, _, _ | Ne, _, _ | Xor, _, _ | Or, _, _ => Free
  | _, _, _ => MustRaise
  end.

Definition conforms (s : spec) (o : outcome) : bool :=
  match s with
  | Must r => outcome_beq o (Value r Computed)
  | May r => outcome_beq o (Value r Computed) || outcome_beq o Raise
  | MustRaise => outcome_beq o Raise
  | Free => negb (outcome_beq o Unmodelled)
  end.

Definition nonobj_kinds : list kind := [KFloat; KInt; KArr [3; 3]; KArr [4; 4]; KArr [3]].
Definition all_kinds : list kind := map Obj all_cls ++ nonobj_kinds.
Definition is_obj (k : kind) : bool := match k with Obj _ => true | _ => false end.
Definition lengths : list nat := [1; 3].        (* single-valued; multi-valued with three values *)

Record cell := { c_n : nat; c_op : op; c_l : kind; c_r : kind }.
(* every ordered pair of kinds with at least one library object x every operator x the given lengths *)
Definition cells_for (ns : list nat) (kinds : list kind) : list cell :=
  flat_map (fun n => flat_map (fun l => flat_map (fun r =>
    if is_obj l || is_obj r then map (fun o => {| c_n := n; c_op := o; c_l := l; c_r := r |}) all_ops else [])
    kinds) kinds) ns.
Definition all_cells : list cell := cells_for lengths all_kinds.
(* a larger table used to validate the model beyond the property's domain: lengths 1..4 and nine more array shapes *)
Definition ext_kinds : list kind :=
  all_kinds ++ [KArr [2]; KArr [2; 2]; KArr [6]; KArr [6; 6]; KArr [3; 5]; KArr [4]; KArr [2; 3]; KArr [3; 1]; KArr [1; 3]].
Definition ext_cells : list cell := cells_for [1; 2; 3; 4] ext_kinds.
(* array-LIKE vector operands: a list or a tuple of 2, 3 or 4 numbers, on either side of every class, every operator *)
Definition seq_kinds : list kind := [KSeq false 2; KSeq false 3; KSeq false 4; KSeq true 2; KSeq true 3; KSeq true 4].
Definition is_seq_kind (k : kind) : bool := match k with KSeq _ _ => true | _ => false end.
Definition seq_cells : list cell :=
  filter (fun c => is_seq_kind (c_l c) || is_seq_kind (c_r c)) (cells_for lengths (map Obj all_cls ++ seq_kinds)).

(* the in-place table: the six arithmetic operators as  x op= y  over every operand kind of the other tables (objects, float, int,
   arrays, lists, tuples), both lengths *)
Definition inplace_cells : list cell :=
  flat_map (fun n => flat_map (fun l => flat_map (fun r =>
    if is_obj l || is_obj r then map (fun o => {| c_n := n; c_op := o; c_l := l; c_r := r |}) arith_ops else [])
    (all_kinds ++ seq_kinds)) (all_kinds ++ seq_kinds)) lengths.

Definition model (c : cell) : outcome := binop (c_n c) (c_op c) (c_l c) (c_r c).
Definition imodel (c : cell) : outcome := iop (c_n c) (c_op c) (c_l c) (c_r c).
Definition spec_of (c : cell) : spec := documented (c_n c) (c_op c) (c_l c) (c_r c).
Definition cell_ok (c : cell) : bool := conforms (spec_of c) (model c).
(* one line per cell, printed by the check and compared with the implementation *)
Definition report_for (cells : list cell) : list (nat * op * kind * kind * outcome * spec) :=
  map (fun c => (c_n c, c_op c, c_l c, c_r c, model c, spec_of c)) cells.
Definition report := report_for all_cells.
Definition ireport : list (nat * op * kind * kind * outcome * spec) :=
  map (fun c => (c_n c, c_op c, c_l c, c_r c, imodel c, spec_of c)) inplace_cells.

End Model.

(* pose * pose and pose / pose are defined for operands of the same class only: with a right operand of any other class
   (in particular a superclass instance: SE3 * SO3) __mul__ declines and __truediv__ raises *)
Lemma SMPose_mul_other_class_declines :
  forall (H : hier) (n : nat) (l r : cls), cls_beq l r = false -> SMPose_mul H n l (Obj r) = NotImpl.
Proof. intros H n l r Hlr. unfold SMPose_mul. rewrite Hlr. reflexivity. Qed.
Lemma SMPose_div_other_class_raises :
  forall (H : hier) (n : nat) (l r : cls), cls_beq l r = false -> SMPose_div H n l (Obj r) = Out Raise.
Proof. intros H n l r Hlr. unfold SMPose_div. rewrite Hlr. reflexivity. Qed.

(* the shared helper raises for every right operand that is an object of an unrelated class: + and - never return None *)
Lemma SMPose_addsub_unrelated_raises :
  forall (H : hier) (n : nat) (l r : cls),
    isinst H r (C l) = false -> SMPose_addsub H n l (Obj r) = Out Raise.
Proof. intros H n l r Hrl. unfold SMPose_addsub, op2. rewrite Hrl. reflexivity. Qed.

(* and when the right operand is an instance of a proper subclass with elements of another shape, NumPy refuses to combine them *)
Lemma SMPose_addsub_subclass_instance :
  forall (H : hier) (n : nat) (l r : cls),
    isinst H r (C l) = true -> bcast (eshape H l) (eshape H r) = false -> SMPose_addsub H n l (Obj r) = Out Raise.
Proof. intros H n l r Hrl Hb. unfold SMPose_addsub, op2, np_ok. rewrite Hrl, Hb. reflexivity. Qed.

(* the helper never yields None, whatever the operands *)
Lemma SMPose_addsub_never_none :
  forall (H : hier) (n : nat) (l : cls) (r : kind), SMPose_addsub H n l r <> Out ReturnsNone.
Proof.
  intros H n l r. unfold SMPose_addsub, op2.
  destruct r as [rc | | | s | tup m]; repeat match goal with |- context [if ?b then _ else _] => destruct b end; simpl; discriminate.
Qed.

(* protocol: with a number on the left the outcome is whatever the reflected method of the right class says, TypeError if it
   declines or does not exist *)
Lemma arith_scalar_left :
  forall (H : hier) n rec o cr,
    arith H n rec o KFloat (Obj cr) = or_else (call H n rec (owner H cr (Rev o)) (Rev o) cr KFloat) Raise.
Proof. reflexivity. Qed.

Lemma arith_no_methods_raises :
  forall (H : hier) n rec o cl cr,
    owner H cl (Fwd o) = None -> owner H cr (Rev o) = None -> arith H n rec o (Obj cl) (Obj cr) = Raise.
Proof.
  intros H n rec o cl cr Hf Hr. unfold arith. rewrite Hf, Hr. simpl.
  rewrite andb_false_r. destruct (cls_beq cl cr); reflexivity.
Qed.

(* under an arithmetic operator every branch of [documented] ends in Must, May or MustRaise: only comparisons are left free *)
Lemma documented_arith H n o l r : arith_op o = true -> documented H n o l r <> Free.
Proof.
  destruct o; try discriminate; intros _; unfold documented; destruct l, r;
    repeat match goal with |- context [if ?b then _ else _] => destruct b end; discriminate.
Qed.

Lemma outcome_beq_true : forall a b, outcome_beq a b = true -> a = b.
Proof. exact internal_outcome_dec_bl. Qed.
Lemma outcome_beq_refl : forall a, outcome_beq a a = true.
Proof. intro a. apply internal_outcome_dec_lb. reflexivity. Qed.

(* [forall c in cells, P c] from one evaluation of [forallb] *)
Lemma table_forall : forall (P : cell -> bool) (cells : list cell),
  forallb P cells = true -> forall c, In c cells -> P c = true.
Proof. intros P cells Hall c Hin. exact (proj1 (forallb_forall P cells) Hall c Hin). Qed.

Definition is_computed_or_raise (o : outcome) : bool :=
  match o with Raise => true | Value _ Computed => true | _ => false end.
Lemma computed_or_raise_modelled o : is_computed_or_raise o = true -> o <> Unmodelled.
Proof. intros Ho ->. discriminate. Qed.

(* membership in a table without enumerating it *)
Definition cell_of (n : nat) (o : op) (l r : kind) : cell := {| c_n := n; c_op := o; c_l := l; c_r := r |}.
Lemma In_cells_for ns ks c : In c (cells_for ns ks) <->
  In (c_n c) ns /\ In (c_l c) ks /\ In (c_r c) ks /\ is_obj (c_l c) || is_obj (c_r c) = true /\ In (c_op c) all_ops.
Proof.
  unfold cells_for. rewrite in_flat_map. split.
  - intros (n & Hn & H). apply in_flat_map in H. destruct H as (l & Hl & H).
    apply in_flat_map in H. destruct H as (r & Hr & H).
    destruct (is_obj l || is_obj r) eqn:Hobj; [|contradiction].
    apply in_map_iff in H. destruct H as (o & <- & Ho). cbn. auto.
  - intros (Hn & Hl & Hr & Hobj & Ho). exists (c_n c). split; [exact Hn|].
    apply in_flat_map. exists (c_l c). split; [exact Hl|].
    apply in_flat_map. exists (c_r c). split; [exact Hr|].
    rewrite Hobj. apply in_map_iff. exists (c_op c). split; [now destruct c | exact Ho].
Qed.

Lemma cell_in : forall n o l r,
  In n lengths -> In l all_kinds -> In r all_kinds -> is_obj l || is_obj r = true -> In o all_ops ->
  In (cell_of n o l r) all_cells.
Proof. intros. apply In_cells_for. cbn. auto. Qed.

Lemma cells_for_incl ns ns' ks ks' : incl ns ns' -> incl ks ks' -> incl (cells_for ns ks) (cells_for ns' ks').
Proof. intros Hn Hk c. rewrite !In_cells_for. intros (? & ? & ? & ? & ?). auto 6. Qed.

(* the property's table is part of the larger one *)
Lemma all_cells_ext : incl all_cells ext_cells.
Proof.
  apply cells_for_incl; [|apply incl_appl, incl_refl].
  intros n [<-|[<-|[]]]; cbn; auto.
Qed.
