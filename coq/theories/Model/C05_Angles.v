(* C05 -- hand-written, scalar-generic models of the angle-extraction kernels of
   spatialmath/base/transforms3d.py (tr2rpy, tr2eul) and transforms2d.py (tr2xyt), mirroring the code AS IT IS:
   same branch tests, same formulas, same operation order (so that the float instance agrees with the
   implementation bit for bit, including at the thresholds).  The threshold multipliers (the `10` of
   `10 * _eps`) are PARAMETERS: every run re-reads them from the source AST (coq/gen/Consts_C05.v).
   Since fix dd68bbe the singular branch computes math.asin(np.clip(x, -1.0, 1.0)), so tr2rpy is total (before the fix
   math.asin raised ValueError for |x| = 1 + ulp and the model returned an option). *)
From Coq Require Import ZArith.
From SM Require Import Base.Ops Base.Lin.

Section Angles.
Context {T : Type} (O : ops T).
Local Notation "0" := (zero O). Local Notation "1" := (one O).
Local Infix "+" := (add O). Local Infix "-" := (sub O). Local Infix "*" := (mul O).
Local Infix "/" := (div O). Local Notation "- x" := (neg O x).
Local Notation abs := (abs_ O). Local Notation atan2 := (atan2_ O). Local Notation atan := (atan_ O).
Local Notation asin := (asin_ O). Local Notation cos := (cos_ O). Local Notation sin := (sin_ O).
Local Notation "a <? b" := (ltb O a b) (at level 70).

(* np.argmax(np.abs([a,b,c,d])): index of the FIRST maximum *)
Definition argmax4 (a b c d : T) : nat :=
  let k := Datatypes.O in let m := a in
  let km := if m <? b then (1%nat, b) else (k, m) in
  let km := if snd km <? c then (2%nat, c) else km in
  let km := if snd km <? d then (3%nat, d) else km in
  fst km.

(* np.clip(x, -1.0, 1.0) = minimum(maximum(x, -1), 1), then math.asin *)
Definition clip1 (x : T) : T := if ltb O x (neg O (one O)) then neg O (one O) else if ltb O (one O) x then one O else x.
Definition asin_clip (x : T) : T := asin (clip1 x).

(* rpy *= 180 / math.pi *)
Definition to_deg : T := of_Z O 180 / pi_f O.
Definition scale_unit (deg : bool) (a : V3 T) : V3 T :=
  if deg then let '(a0,a1,a2) := a in (a0 * to_deg, a1 * to_deg, a2 * to_deg) else a.

(* ------------------------------------------------------------------ tr2rpy, order 'zyx' / 'vehicle' *)
Definition is_sing (c x : T) : bool := abs (abs x - 1) <? c * eps O.

(* the four argmax-selected pitch formulas, given roll r and yaw y already extracted *)
Definition pitch_zyx (k : nat) (R : M33 T) (r y : T) : T :=
  let '((r00,r01,r02),(r10,r11,r12),(r20,r21,r22)) := R in
  match k with
  | Datatypes.O => - atan (r20 * cos y / r00)
  | 1%nat => - atan (r20 * sin y / r10)
  | 2%nat => - atan (r20 * sin r / r21)
  | _ => - atan (r20 * cos r / r22)
  end.
Definition argmax_zyx (R : M33 T) : nat :=
  let '((r00,r01,r02),(r10,r11,r12),(r20,r21,r22)) := R in argmax4 (abs r00) (abs r10) (abs r21) (abs r22).
Definition rpy_zyx_sing (R : M33 T) : V3 T :=
  let '((r00,r01,r02),(r10,r11,r12),(r20,r21,r22)) := R in
  let y := if r20 <? 0 then - atan2 r01 r02 else atan2 (- r01) (- r02) in
  (0, - asin_clip r20, y).
Definition rpy_zyx_ns (k : nat) (R : M33 T) : V3 T :=
  let '((r00,r01,r02),(r10,r11,r12),(r20,r21,r22)) := R in
  let r := atan2 r21 r22 in let y := atan2 r10 r00 in
  (r, pitch_zyx k R r y, y).
Definition tr2rpy_zyx (c : T) (R : M33 T) : V3 T :=
  let '((r00,r01,r02),(r10,r11,r12),(r20,r21,r22)) := R in
  if is_sing c r20 then rpy_zyx_sing R else rpy_zyx_ns (argmax_zyx R) R.

(* ------------------------------------------------------------------ order 'xyz' / 'arm' *)
Definition pitch_xyz (k : nat) (R : M33 T) (r y : T) : T :=
  let '((r00,r01,r02),(r10,r11,r12),(r20,r21,r22)) := R in
  match k with
  | Datatypes.O => atan (r02 * cos r / r00)
  | 1%nat => - atan (r02 * sin r / r01)
  | 2%nat => - atan (r02 * sin y / r12)
  | _ => atan (r02 * cos y / r22)
  end.
Definition argmax_xyz (R : M33 T) : nat :=
  let '((r00,r01,r02),(r10,r11,r12),(r20,r21,r22)) := R in argmax4 (abs r00) (abs r01) (abs r12) (abs r22).
Definition rpy_xyz_sing (R : M33 T) : V3 T :=
  let '((r00,r01,r02),(r10,r11,r12),(r20,r21,r22)) := R in
  let y := if 0 <? r02 then atan2 r21 r11 else - atan2 r10 r20 in
  (0, asin_clip r02, y).
Definition rpy_xyz_ns (k : nat) (R : M33 T) : V3 T :=
  let '((r00,r01,r02),(r10,r11,r12),(r20,r21,r22)) := R in
  let r := - atan2 r01 r00 in let y := - atan2 r12 r22 in
  (r, pitch_xyz k R r y, y).
Definition tr2rpy_xyz (c : T) (R : M33 T) : V3 T :=
  let '((r00,r01,r02),(r10,r11,r12),(r20,r21,r22)) := R in
  if is_sing c r02 then rpy_xyz_sing R else rpy_xyz_ns (argmax_xyz R) R.

(* ------------------------------------------------------------------ order 'yxz' / 'camera' *)
Definition pitch_yxz (k : nat) (R : M33 T) (r y : T) : T :=
  let '((r00,r01,r02),(r10,r11,r12),(r20,r21,r22)) := R in
  match k with
  | Datatypes.O => - atan (r12 * sin r / r10)
  | 1%nat => - atan (r12 * cos r / r11)
  | 2%nat => - atan (r12 * sin y / r02)
  | _ => - atan (r12 * cos y / r22)
  end.
Definition argmax_yxz (R : M33 T) : nat :=
  let '((r00,r01,r02),(r10,r11,r12),(r20,r21,r22)) := R in argmax4 (abs r10) (abs r11) (abs r02) (abs r22).
Definition rpy_yxz_sing (R : M33 T) : V3 T :=
  let '((r00,r01,r02),(r10,r11,r12),(r20,r21,r22)) := R in
  let y := if r12 <? 0 then - atan2 r20 r00 else atan2 (- r20) (- r21) in
  (0, - asin_clip r12, y).
Definition rpy_yxz_ns (k : nat) (R : M33 T) : V3 T :=
  let '((r00,r01,r02),(r10,r11,r12),(r20,r21,r22)) := R in
  let r := atan2 r10 r11 in let y := atan2 r02 r22 in
  (r, pitch_yxz k R r y, y).
Definition tr2rpy_yxz (c : T) (R : M33 T) : V3 T :=
  let '((r00,r01,r02),(r10,r11,r12),(r20,r21,r22)) := R in
  if is_sing c r12 then rpy_yxz_sing R else rpy_yxz_ns (argmax_yxz R) R.

(* with the unit option *)
Definition tr2rpy_zyx_u (c : T) (deg : bool) (R : M33 T) : V3 T := scale_unit deg (tr2rpy_zyx c R).
Definition tr2rpy_xyz_u (c : T) (deg : bool) (R : M33 T) : V3 T := scale_unit deg (tr2rpy_xyz c R).
Definition tr2rpy_yxz_u (c : T) (deg : bool) (R : M33 T) : V3 T := scale_unit deg (tr2rpy_yxz c R).

(* ------------------------------------------------------------------ tr2eul *)
(* the last two angles given the first (code lines shared by both branches), sp/cp written out in each branch;
   in the singular branch the code uses the INTEGERS sp = 0, cp = 1, and `-sp` is the integer 0 *)
Definition eul_sing (R : M33 T) : V3 T :=
  let '((r00,r01,r02),(r10,r11,r12),(r20,r21,r22)) := R in
  (0, atan2 (1 * r02 + 0 * r12) r22, atan2 (0 * r00 + 1 * r10) (0 * r01 + 1 * r11)).
Definition eul_ns (flip : bool) (R : M33 T) : V3 T :=
  let '((r00,r01,r02),(r10,r11,r12),(r20,r21,r22)) := R in
  let a := if flip then atan2 (- r12) (- r02) else atan2 r12 r02 in
  let sp := sin a in let cp := cos a in
  (a, atan2 (cp * r02 + sp * r12) r22, atan2 ((- sp) * r00 + cp * r10) ((- sp) * r01 + cp * r11)).
Definition eul_is_sing (c1 c2 : T) (R : M33 T) : bool :=
  let '((r00,r01,r02),(r10,r11,r12),(r20,r21,r22)) := R in
  andb (abs r02 <? c1 * eps O) (abs r12 <? c2 * eps O).
Definition tr2eul (c1 c2 : T) (flip : bool) (R : M33 T) : V3 T :=
  if eul_is_sing c1 c2 R then eul_sing R else eul_ns flip R.
Definition tr2eul_u (c1 c2 : T) (flip deg : bool) (R : M33 T) : V3 T := scale_unit deg (tr2eul c1 c2 flip R).

(* ------------------------------------------------------------------ planar *)
(* tr2xyt(T, unit): angle = atan2(T[1,0], T[0,0]); if unit == 'deg': angle *= 180 / math.pi   (fix 3a3ffa8) *)
Definition tr2xyt (deg : bool) (A : M33 T) : V3 T :=
  let '((a00,a01,a02),(a10,a11,a12),(a20,a21,a22)) := A in
  (a02, a12, if deg then atan2 a10 a00 * to_deg else atan2 a10 a00).
(* SO2.theta(unit) / SE2.theta(unit): conv * atan2(A[1,0], A[0,0]), conv = 180.0/math.pi or 1.0 *)
Definition theta2 (deg : bool) (A : M22 T) : T :=
  let '((a00,a01),(a10,a11)) := A in (if deg then to_deg else 1) * atan2 a10 a00.

(* SE(3) inputs: tr2rpy / tr2eul take the rotation block *)
Definition tr2rpy_zyx_u4 c deg (A : M44 T) := tr2rpy_zyx_u c deg (t2r3 A).
Definition tr2rpy_xyz_u4 c deg (A : M44 T) := tr2rpy_xyz_u c deg (t2r3 A).
Definition tr2rpy_yxz_u4 c deg (A : M44 T) := tr2rpy_yxz_u c deg (t2r3 A).
Definition tr2eul_u4 c1 c2 flip deg (A : M44 T) := tr2eul_u c1 c2 flip deg (t2r3 A).

(* reference constructors in (cos, sin) product form: the documented axis orders *)
Definition Rz a := rotz_cs O (cos a) (sin a).
Definition Ry a := roty_cs O (cos a) (sin a).
Definition Rx a := rotx_cs O (cos a) (sin a).
Definition rpy2r_zyx_ref (a : V3 T) : M33 T := let '(r,p,y) := a in mmul33 O (Rz y) (mmul33 O (Ry p) (Rx r)).
Definition rpy2r_xyz_ref (a : V3 T) : M33 T := let '(r,p,y) := a in mmul33 O (Rx y) (mmul33 O (Ry p) (Rz r)).
Definition rpy2r_yxz_ref (a : V3 T) : M33 T := let '(r,p,y) := a in mmul33 O (Ry y) (mmul33 O (Rx p) (Rz r)).
Definition eul2r_ref (a : V3 T) : M33 T := let '(f,t,p) := a in mmul33 O (Rz f) (mmul33 O (Ry t) (Rz p)).
Definition xyt2tr_ref (a : V3 T) : M33 T := let '(x,y,t) := a in rt2tr2 O (rot2_cs O (cos t) (sin t)) (x,y).
End Angles.

Create HintDb c05 discriminated.
#[export] Hint Unfold argmax4 clip1 asin_clip to_deg scale_unit is_sing pitch_zyx argmax_zyx rpy_zyx_sing rpy_zyx_ns tr2rpy_zyx
  pitch_xyz argmax_xyz rpy_xyz_sing rpy_xyz_ns tr2rpy_xyz pitch_yxz argmax_yxz rpy_yxz_sing rpy_yxz_ns tr2rpy_yxz
  tr2rpy_zyx_u tr2rpy_xyz_u tr2rpy_yxz_u eul_sing eul_ns eul_is_sing tr2eul tr2eul_u tr2xyt theta2
  tr2rpy_zyx_u4 tr2rpy_xyz_u4 tr2rpy_yxz_u4 tr2eul_u4 Rz Ry Rx rpy2r_zyx_ref rpy2r_xyz_ref rpy2r_yxz_ref eul2r_ref xyt2tr_ref : c05.
