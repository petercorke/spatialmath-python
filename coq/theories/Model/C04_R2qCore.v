(* Core algebra behind the r2q model (Model/C04_R2q.v), independent of the model's text.
   For A = q2r q with q a unit quaternion, Shepperd's symmetric 4x4 matrix of A is 4 q q^T.  Its row 0 is (trace + 1, k)
   with k the skew part of A; row i+1 is (k_i, k1 of the i-th "largest diagonal" branch).  r2q normalises row 0 when the
   trace is positive, and row 0 +- row i+1 otherwise.  For A in SO(3) the matrix has rank one -- each 2x2 minor is a linear
   combination of the quadratic facts about A -- so every such vector p has p p^T = D * shepperd A for a scalar D, and then
   p / (2 sqrt D) is a unit quaternion whose rotation matrix is A. *)
From Coq Require Import Reals Lra Psatz.
From SM Require Import Base.Ops Base.Lin Base.RInst Base.RLin.
Open Scope R_scope.

Definition shepperd (A : M33 R) : M44 R :=
  let '((a00,a01,a02),(a10,a11,a12),(a20,a21,a22)) := A in
  ((a00 + a11 + a22 + 1, a21 - a12, a02 - a20, a10 - a01),
   (a21 - a12, a00 - a11 - a22 + 1, a10 + a01, a20 + a02),
   (a02 - a20, a10 + a01, a11 - a00 - a22 + 1, a21 + a12),
   (a10 - a01, a20 + a02, a21 + a12, a22 - a00 - a11 + 1)).

Definition outer4 (p : V4 R) : M44 R :=
  let '(p0,p1,p2,p3) := p in
  ((p0*p0, p0*p1, p0*p2, p0*p3), (p1*p0, p1*p1, p1*p2, p1*p3), (p2*p0, p2*p1, p2*p2, p2*p3), (p3*p0, p3*p1, p3*p2, p3*p3)).

Definition mscale44 (k : R) (A : M44 R) : M44 R :=
  let '((a00,a01,a02,a03),(a10,a11,a12,a13),(a20,a21,a22,a23),(a30,a31,a32,a33)) := A in
  ((k*a00, k*a01, k*a02, k*a03), (k*a10, k*a11, k*a12, k*a13), (k*a20, k*a21, k*a22, k*a23), (k*a30, k*a31, k*a32, k*a33)).

Lemma outer4_scale k p : outer4 (vscale4 Rops k p) = mscale44 (k*k) (outer4 p).
Proof. unfold outer4, mscale44. lin_ring. Qed.
Lemma mscale44_mscale44 k l A : mscale44 k (mscale44 l A) = mscale44 (k*l) A.
Proof. unfold mscale44. lin_ring. Qed.
Lemma mscale44_1 A : mscale44 1 A = A.
Proof. unfold mscale44. lin_ring. Qed.

(* q2r q and |q|^2 are linear in the products q_i q_j *)
Lemma q2r_of_outer (q : V4 R) (A : M33 R) :
  outer4 (vscale4 Rops 2 q) = shepperd A -> q2r_ref Rops q = A /\ qnormsq Rops q = 1.
Proof.
  destruct_tuples. unfold outer4, shepperd. lin_simpl. intros E. injection E; intros.
  split; [tuple_eq lra | lra].
Qed.

Lemma quat_of_rank1 (p : V4 R) (A : M33 R) (D : R) : 0 < D -> outer4 p = mscale44 D (shepperd A) ->
  q2r_ref Rops (vscale4 Rops (/ (2 * sqrt D)) p) = A /\ qnormsq Rops (vscale4 Rops (/ (2 * sqrt D)) p) = 1.
Proof.
  intros HD E. apply q2r_of_outer.
  replace (vscale4 Rops 2 (vscale4 Rops (/ (2 * sqrt D)) p)) with (vscale4 Rops (/ sqrt D) p).
  - rewrite outer4_scale, E, mscale44_mscale44.
    replace (/ sqrt D * / sqrt D * D) with 1; [apply mscale44_1|].
    rewrite <- (sqrt_sqrt D) at 3 by lra. field. apply Rgt_not_eq, sqrt_lt_R0, HD.
  - destruct_tuples. lin_simpl. tuple_eq ltac:(field; apply Rgt_not_eq, sqrt_lt_R0, HD).
Qed.

Definition row4 (i : nat) (M : M44 R) : V4 R :=
  let '(r0,r1,r2,r3) := M in match i with 0%nat => r0 | 1%nat => r1 | 2%nat => r2 | _ => r3 end.
Definition nth4 (i : nat) (v : V4 R) : R :=
  let '(v0,v1,v2,v3) := v in match i with 0%nat => v0 | 1%nat => v1 | 2%nat => v2 | _ => v3 end.

(* the minors r2q uses: row 0 with itself, and row 0 +- row i+1 with itself (e = +1 is the `add` case) *)
Lemma shepperd_row0 (A : M33 R) : SO3 A ->
  outer4 (row4 0 (shepperd A)) = mscale44 (nth4 0 (row4 0 (shepperd A))) (shepperd A).
Proof. intros H. destruct_tuples. so3_facts H. unfold outer4, mscale44, shepperd, row4, nth4. tuple_eq lra. Qed.

Lemma shepperd_rows (A : M33 R) (i : nat) (e : R) : SO3 A -> e = 1 \/ e = -1 ->
  let Q := shepperd A in
  outer4 (vadd4 Rops (row4 0 Q) (vscale4 Rops e (row4 (S i) Q)))
  = mscale44 (nth4 0 (row4 0 Q) + 2 * e * nth4 0 (row4 (S i) Q) + nth4 (S i) (row4 (S i) Q)) Q.
Proof.
  intros H He. destruct_tuples. so3_facts H.
  destruct i as [|[|i]]; destruct He; subst e; unfold outer4, mscale44, shepperd, row4, nth4; lin_simpl; tuple_eq lra.
Qed.

Lemma SO3_trace_bounds a00 a01 a02 a10 a11 a12 a20 a21 a22 :
  SO3 ((a00,a01,a02),(a10,a11,a12),(a20,a21,a22)) -> 0 <= a00 + a11 + a22 + 1 <= 4.
Proof.
  intros H. pose proof (shepperd_row0 _ H) as E. unfold outer4, mscale44, shepperd, row4, nth4 in E.
  injection E; intros.
  assert (S : (a21 - a12)*(a21 - a12) + (a02 - a20)*(a02 - a20) + (a10 - a01)*(a10 - a01) = (a00 + a11 + a22 + 1) * (4 - (a00 + a11 + a22 + 1))) by lra.
  pose proof (Rle_0_sqr (a21 - a12)) as Q1. pose proof (Rle_0_sqr (a02 - a20)) as Q2. pose proof (Rle_0_sqr (a10 - a01)) as Q3. unfold Rsqr in *.
  clear - S Q1 Q2 Q3. generalize dependent (a00 + a11 + a22 + 1). intros t1 **. split; nra.
Qed.

(* what the scalars qs and f of the trace <= 0 branches are, given p = (p0, kv) with p p^T = D * shepperd A:
   p0^2 = D (trace + 1) and N = |kv|^2 = D (3 - trace) *)
Lemma r2q_scalars t1 p0 D N qs f :
  0 <= t1 -> 0 <= p0 -> p0*p0 = D*t1 -> N = D*(4 - t1) -> 0 < D -> 0 < N ->
  qs = sqrt t1 / 2 -> f = sqrt (1 - qs*qs) / sqrt N ->
  qs = / (2 * sqrt D) * p0 /\ f = / (2 * sqrt D).
Proof.
  intros Ht Hp Ep EN HD HN -> ->.
  assert (H4 : 0 < 4 - t1) by nra.
  assert (Hs : 0 < sqrt D) by (apply sqrt_lt_R0; exact HD).
  assert (Hs4 : 0 < sqrt (4 - t1)) by (apply sqrt_lt_R0; exact H4).
  assert (E0 : p0 = sqrt D * sqrt t1). { rewrite <- sqrt_mult by lra. rewrite <- Ep. symmetry. apply sqrt_square. exact Hp. }
  assert (E1 : sqrt (1 - sqrt t1 / 2 * (sqrt t1 / 2)) = sqrt (4 - t1) / 2).
  { pose proof (sqrt_sqrt t1 Ht). pose proof (sqrt_sqrt (4 - t1)). apply sqrt_lem_1; lra. }
  split.
  - rewrite E0. field. lra.
  - rewrite E1, EN, sqrt_mult by lra. field. lra.
Qed.
