(* Reasoning on the scalar form of a traced geometric function: every square root and every reciprocal is replaced
   by a variable with its defining equation (s * s = e, 0 <= s;  i * d = 1), after which the goal is polynomial. *)
From Coq Require Import Reals Lra Nsatz Psatz.
From SM Require Import Base.RInst.
Open Scope R_scope.

Ltac sq_nonneg :=
  lazymatch goal with
  | |- 0 <= ?a + ?b => apply Rplus_le_le_0_compat; sq_nonneg
  | |- 0 <= ?x * ?x => apply Rle_0_sqr
  | |- _ => nra
  end.
(* abstract every sqrt: s with s*s = e, 0 <= s *)
Ltac name_sqrt e :=
  let s := fresh "s" in let H1 := fresh "Hss" in let H2 := fresh "Hs0" in let Hq := fresh "Hq" in
  assert (H1 : sqrt e * sqrt e = e) by (apply sqrt_sqrt; sq_nonneg);
  pose proof (sqrt_pos e) as H2;
  remember (sqrt e) as s eqn:Hq; clear Hq.
Ltac abs_sqrt :=
  repeat match goal with
  | |- context [sqrt ?e] => name_sqrt e
  | H : context [sqrt ?e] |- _ => name_sqrt e
  end.
Ltac nz := assumption || lra || nra.
(* abstract every reciprocal 1/d: i with i*d = 1 *)
Ltac name_inv d :=
  let i := fresh "i" in let Hi := fresh "Hi" in let Hq := fresh "Hq" in
  assert (Hi : (1 / d) * d = 1) by (field; nz);
  remember (1 / d) as i eqn:Hq; clear Hq.
Ltac abs_inv :=
  repeat match goal with
  | |- context [1 / ?d] => name_inv d
  | H : context [1 / ?d] |- _ => name_inv d
  end.
Ltac fld := field; repeat split; nz.
(* nsatz is confused by order hypotheses, and slowed by the defining equation of a square root that nothing else
   mentions: keep the other equalities only *)
Ltac nsz :=
  repeat match goal with H : _ <= _ |- _ => clear H | H : _ < _ |- _ => clear H | H : _ <> _ |- _ => clear H end;
  repeat match goal with H : ?s * ?s = _ |- _ => is_var s; clear H; clear s end;
  nsatz.
(* from a taken test  sqrt e > c  (c a positive literal): 0 < sqrt e, e <> 0 *)
Ltac pos_of s e :=
  lazymatch goal with
  | _ : 0 < s |- _ => fail
  | _ => assert (0 < s) by lra; assert (e <> 0) by nra
  end.
Ltac pos_sqrt :=
  repeat match goal with
  | H : 0 < _ + ?s, Hss : ?s * ?s = ?e |- _ => pos_of s e
  | H : 0 <= _ + ?s, Hss : ?s * ?s = ?e |- _ => pos_of s e
  end.
(* two of the square roots in the goal have arguments a = k*k*b as polynomials (a vector and its k-fold): sqrt a = k sqrt b *)
Ltac sqrt_scale k :=
  match goal with |- context [sqrt ?b] => match goal with |- context [sqrt ?a] =>
    let E := fresh in assert (E : a = k * k * b) by ring; rewrite E, (sqrt_sqr_mult k b) by lra; clear E
  end end.
(* from  s*s = e  and  e <> 0  (a direction is not zero): 0 < s *)
Ltac pos_of_nz :=
  repeat match goal with
  | Hss : ?s * ?s = ?e, Hne : ?e <> 0 |- _ =>
      lazymatch goal with _ : 0 < s |- _ => fail
      | _ => assert (0 < s) by (destruct (Req_dec s 0) as [Z|Z]; [exfalso; apply Hne; rewrite <- Hss, Z; ring | lra]) end
  end.

Lemma sqrt_div_self (W B : R) : 0 < W -> 0 <= B -> 1 / W * sqrt (W * B) = sqrt B / sqrt W.
Proof.
  intros HW HB. pose proof (sqrt_lt_R0 W HW). rewrite sqrt_mult by lra. rewrite <- (sqrt_sqrt W) at 1 by lra. field. lra.
Qed.
