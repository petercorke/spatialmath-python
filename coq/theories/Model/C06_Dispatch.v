(* C06 -- hand-written model of the argument-shape dispatch of SMPose.__mul__ for (pose) * (list | tuple | ndarray)
   (spatialmath/super_pose.py:965-1003), over abstract argument forms.  No arithmetic here: the model says WHICH
   (pose value, point column) pair every output column is computed from, the result shape, or the exception kind.
   It mirrors the code as it is (HEAD after fix 86fcbcb); it is tied to the implementation on every run by evaluating [dispatch] with
   vm_compute on the whole grid {SO2,SE2,SO3,SE3} x pose length 1..5 x {list,tuple,1-D,row,column,d x N, N=1..7}
   and comparing shape, column provenance and exception kind with the real call (props/C06.py: grid).

   branch order of the code (SO and SE variants differ only in the kernel that is applied, R p versus h2e(T e2h(p))):
     1  len(left) == 1 and isvector(right, N)                                  -> kernel on the column form, shape (N,1)
     2  len(left)  > 1 and isvector(right, N)                                  -> one column per pose value, shape (N,len)
     3  len(left) == 1 and ndarray and right.shape[0] == N                     -> left.A @ right, shape (N,M)
     4  ndarray and right.shape[0] == N and len(left) == right.shape[1]        -> column i = left[i] applied to right[:,i], shape (N,len)
                                                                                  (since fix 86fcbcb; before, zip(right, left.T) raised AttributeError)
     5  else                                                                   -> ValueError('bad operands')          *)
From Coq Require Import List Arith Bool Lia.
Import ListNotations.

Inductive form := FList (n : nat) | FTuple (n : nat) | FArr1 (n : nat) | FArr2 (r c : nat).
Inductive err := ValueError.
Record res := { shape : list nat; cols : list (nat * nat) }.   (* cols: (index of the pose value, index of the point column) *)

(* base.isvector(v, dim) for sequences of scalars and arrays *)
Definition isvector (f : form) (dim : nat) : bool :=
  match f with
  | FList n | FTuple n | FArr1 n => n =? dim
  | FArr2 r c => ((r =? 1) && (c =? dim)) || ((r =? dim) && (c =? 1))
  end.
Definition is_ndarray (f : form) : bool := match f with FArr1 _ | FArr2 _ _ => true | _ => false end.
Definition shape0 (f : form) : nat := match f with FArr1 n => n | FArr2 r _ => r | _ => 0 end.
(* right.shape[1]; for a 1-D array it would raise IndexError, but it is only evaluated after shape[0] == N held for an
   array that is not a vector, which excludes 1-D arrays (lemma arr1_never_reaches_shape1) *)
Definition shape1 (f : form) : option nat := match f with FArr2 _ c => Some c | _ => None end.

Definition dispatch (len dim : nat) (f : form) : err + res :=
  if (len =? 1) && isvector f dim then inr {| shape := [dim; 1]; cols := [(0, 0)] |}
  else if (1 <? len) && isvector f dim then inr {| shape := [dim; len]; cols := map (fun i => (i, 0)) (seq 0 len) |}
  else if (len =? 1) && is_ndarray f && (shape0 f =? dim) then
    match shape1 f with
    | Some c => inr {| shape := [dim; c]; cols := map (fun j => (0, j)) (seq 0 c) |}
    | None => inr {| shape := [dim]; cols := [(0, 0)] |}
    end
  else if is_ndarray f && (shape0 f =? dim) && (match shape1 f with Some c => len =? c | None => false end)
    then inr {| shape := [dim; len]; cols := map (fun i => (i, i)) (seq 0 len) |}
  else inl ValueError.

(* value level: the kernel [act] (pose value -> point -> point) applied as the dispatch says *)
Section Apply.
Context {P V : Type} (act : P -> V -> V) (dP : P) (dV : V).
Definition pose_mul (poses : list P) (pts : list V) (f : form) (dim : nat) : err + list V :=
  match dispatch (length poses) dim f with
  | inl e => inl e
  | inr r => inr (map (fun ij => act (nth (fst ij) poses dP) (nth (snd ij) pts dV)) (cols r))
  end.
End Apply.

Lemma arr1_never_reaches_shape1 len dim n : 1 <= len ->
  (len =? 1) && isvector (FArr1 n) dim = false -> (1 <? len) && isvector (FArr1 n) dim = false ->
  shape0 (FArr1 n) =? dim = false.
Proof.
  intros Hl H1 H2. simpl in *. destruct (n =? dim) eqn:E; [|reflexivity].
  rewrite andb_true_r in H1, H2. apply Nat.eqb_neq in H1. apply Nat.ltb_ge in H2. lia.
Qed.

(* a point in any vector form: one column per pose value (branches 1 and 2 are one statement) *)
Lemma dispatch_vector len dim f : 1 <= len -> isvector f dim = true ->
  dispatch len dim f = inr {| shape := [dim; len]; cols := map (fun i => (i, 0)) (seq 0 len) |}.
Proof.
  intros Hl Hf. unfold dispatch. rewrite Hf, !andb_true_r.
  destruct (Nat.eqb_spec len 1) as [->|Hne]; [reflexivity|].
  destruct (Nat.ltb_spec 1 len); [reflexivity|lia].
Qed.

(* the result does not depend on which vector form the point is given in *)
Lemma dispatch_form_independent len dim f g : 1 <= len -> isvector f dim = true -> isvector g dim = true ->
  dispatch len dim f = dispatch len dim g.
Proof. intros Hl Hf Hg. now rewrite !dispatch_vector. Qed.

(* one pose, d x N array: for EVERY N >= 1 (N = 1 goes through the vector branch, N = dim is not special) *)
Lemma dispatch_single_array dim N : 2 <= dim -> 1 <= N ->
  dispatch 1 dim (FArr2 dim N) = inr {| shape := [dim; N]; cols := map (fun j => (0, j)) (seq 0 N) |}.
Proof.
  intros Hd HN. unfold dispatch. cbn [isvector is_ndarray shape0 shape1]. rewrite !Nat.eqb_refl.
  destruct (Nat.eqb_spec dim 1); [lia|]. destruct (Nat.eqb_spec N 1) as [->|]; reflexivity.
Qed.

(* a multi-valued pose times a d x N array (N >= 2): pose i is applied to column i when N = len(pose); any other N is
   rejected with ValueError *)
Lemma dispatch_multi_array len dim N : 2 <= dim -> 2 <= len -> 2 <= N ->
  dispatch len dim (FArr2 dim N) =
    if len =? N then inr {| shape := [dim; len]; cols := map (fun i => (i, i)) (seq 0 len) |} else inl ValueError.
Proof.
  intros Hd Hl HN. unfold dispatch. cbn [isvector is_ndarray shape0 shape1]. rewrite Nat.eqb_refl.
  destruct (Nat.eqb_spec len 1); [lia|]. destruct (Nat.eqb_spec dim 1); [lia|]. destruct (Nat.eqb_spec N 1); [lia|].
  rewrite !andb_false_r. cbn. destruct (len =? N); reflexivity.
Qed.

(* wrong sizes are rejected with ValueError *)
Lemma dispatch_wrong_length len dim n : 1 <= len -> n <> dim ->
  dispatch len dim (FList n) = inl ValueError /\ dispatch len dim (FTuple n) = inl ValueError /\
  dispatch len dim (FArr1 n) = inl ValueError.
Proof.
  intros Hl Hn. unfold dispatch. cbn [isvector is_ndarray shape0 shape1].
  destruct (Nat.eqb_spec n dim); [contradiction|]. rewrite !andb_false_r. repeat split; reflexivity.
Qed.

Lemma nth_map_seq {A} (g : nat -> A) (d : A) n j : j < n -> nth j (map g (seq 0 n)) d = g j.
Proof.
  intros H. rewrite (nth_indep _ d (g 0)) by (rewrite map_length, seq_length; exact H).
  change (g 0) with ((fun i => g i) 0). rewrite map_nth. rewrite seq_nth by exact H. reflexivity.
Qed.

Section ApplyLemmas.
Context {P V : Type} (act : P -> V -> V) (dP : P) (dV : V).

(* whenever the dispatch yields n columns (g i) for i < n, output column i is the kernel on that pair *)
Lemma pose_mul_cols (poses : list P) (pts : list V) (f : form) (dim : nat) sh (g : nat -> nat * nat) n :
  dispatch (length poses) dim f = inr {| shape := sh; cols := map g (seq 0 n) |} ->
  exists l, pose_mul act dP dV poses pts f dim = inr l /\ length l = n /\
            forall i, i < n -> nth i l dV = act (nth (fst (g i)) poses dP) (nth (snd (g i)) pts dV).
Proof.
  intros H. unfold pose_mul. rewrite H. cbn [cols]. eexists. split; [reflexivity|]. split.
  - now rewrite !map_length, seq_length.
  - intros i Hi. rewrite map_map. now rewrite nth_map_seq.
Qed.

(* an N-column array of points is transformed column by column, for every N *)
Lemma pose_mul_columnwise (X : P) (pts : list V) (dim : nat) : 2 <= dim -> 1 <= length pts ->
  exists l, pose_mul act dP dV [X] pts (FArr2 dim (length pts)) dim = inr l /\ length l = length pts /\
            forall j, j < length pts -> nth j l dV = act X (nth j pts dV).
Proof. intros Hd HN. eapply (pose_mul_cols [X] pts _ dim _ (fun j => (0, j))). now apply dispatch_single_array. Qed.

(* ... and it is what N separate calls on the columns give (each a d x 1 column argument) *)
Lemma pose_mul_single_column (X : P) (p : V) (dim : nat) (f : form) : isvector f dim = true ->
  pose_mul act dP dV [X] [p] f dim = inr [act X p].
Proof. intros H. unfold pose_mul. cbn [length]. now rewrite dispatch_vector. Qed.

(* a multi-valued pose applied to one point (any vector form) gives one column per pose value, for every length >= 2 *)
Lemma pose_mul_multi (poses : list P) (p : V) (dim : nat) (f : form) : 2 <= length poses -> isvector f dim = true ->
  exists l, pose_mul act dP dV poses [p] f dim = inr l /\ length l = length poses /\
            forall i, i < length poses -> nth i l dV = act (nth i poses dP) p.
Proof. intros HL Hv. eapply (pose_mul_cols poses [p] f dim _ (fun i => (i, 0))). apply dispatch_vector; [lia|exact Hv]. Qed.

(* for every length >= 2, output column i is pose i applied to point column i *)
Lemma pose_mul_elementwise (poses : list P) (pts : list V) (dim : nat) : 2 <= dim -> 2 <= length poses ->
  length pts = length poses ->
  exists l, pose_mul act dP dV poses pts (FArr2 dim (length pts)) dim = inr l /\ length l = length poses /\
            forall i, i < length poses -> nth i l dV = act (nth i poses dP) (nth i pts dV).
Proof.
  intros Hd HL HE. rewrite HE. eapply (pose_mul_cols poses pts _ dim _ (fun i => (i, i))).
  now rewrite dispatch_multi_array, Nat.eqb_refl.
Qed.

(* the same three facts with the kernel replaced by what it computes ([spec]) on the values at hand; the first also
   says that column j is what a separate call on that column alone gives *)
Context (spec : P -> V -> V).

Lemma pose_mul_columnwise_spec (X : P) (pts : list V) (dim : nat) :
  (forall p, act X p = spec X p) -> 2 <= dim -> 1 <= length pts ->
  exists l, pose_mul act dP dV [X] pts (FArr2 dim (length pts)) dim = inr l /\ length l = length pts /\
    forall j, j < length pts ->
      nth j l dV = spec X (nth j pts dV) /\ pose_mul act dP dV [X] [nth j pts dV] (FArr2 dim 1) dim = inr [nth j l dV].
Proof.
  intros Hk Hd HN. destruct (pose_mul_columnwise X pts dim Hd HN) as (l & E & Hl & Hc).
  exists l. split; [exact E|]. split; [exact Hl|]. intros j Hj. rewrite (Hc j Hj). split; [apply Hk|].
  apply pose_mul_single_column. cbn. rewrite Nat.eqb_refl. apply orb_true_r.
Qed.

Lemma pose_mul_multi_spec (poses : list P) (p : V) (dim : nat) (f : form) :
  (forall X, In X poses -> act X p = spec X p) -> 2 <= length poses -> isvector f dim = true ->
  exists l, pose_mul act dP dV poses [p] f dim = inr l /\ length l = length poses /\
            forall i, i < length poses -> nth i l dV = spec (nth i poses dP) p.
Proof.
  intros Hk HL Hv. destruct (pose_mul_multi poses p dim f HL Hv) as (l & E & Hl & Hc).
  exists l. split; [exact E|]. split; [exact Hl|]. intros i Hi. rewrite (Hc i Hi). now apply Hk, nth_In.
Qed.

Lemma pose_mul_elementwise_spec (poses : list P) (pts : list V) (dim : nat) :
  (forall X p, In X poses -> act X p = spec X p) -> 2 <= dim -> 2 <= length poses -> length pts = length poses ->
  exists l, pose_mul act dP dV poses pts (FArr2 dim (length pts)) dim = inr l /\ length l = length poses /\
            forall i, i < length poses -> nth i l dV = spec (nth i poses dP) (nth i pts dV).
Proof.
  intros Hk Hd HL HE. destruct (pose_mul_elementwise poses pts dim Hd HL HE) as (l & E & Hl & Hc).
  exists l. split; [exact E|]. split; [exact Hl|]. intros i Hi. rewrite (Hc i Hi). now apply Hk, nth_In.
Qed.
End ApplyLemmas.
