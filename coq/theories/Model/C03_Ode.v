(* C03 -- entrywise derivatives of matrix-valued functions (Coquelicot), the matrix forms [S] of se(3) and se(2) twists, and the
   scalar normal form P4 in which every entry of the closed forms of trexp / trexp2 on a unit twist can be written:
        P4 x t = x0 + x1 t + x2 (1 - cos t) + x3 (t - sin t),    x_k the entry of [S]^k.
   Differentiating P4 shifts the sequence x when x4 = - x2, which is how Model/C03_Series.v shows Phi' = [S] Phi. *)
From Coq Require Import Reals.
From Coquelicot Require Import Coquelicot.
From SM Require Import Base.Ops Base.Lin Base.RInst Base.RLin.
Open Scope R_scope.

Definition e33 (A : M33 R) (i j : nat) : R :=
  let '((a00,a01,a02),(a10,a11,a12),(a20,a21,a22)) := A in
  match i, j with
  | 0%nat, 0%nat => a00 | 0%nat, 1%nat => a01 | 0%nat, _ => a02
  | 1%nat, 0%nat => a10 | 1%nat, 1%nat => a11 | 1%nat, _ => a12
  | _, 0%nat => a20 | _, 1%nat => a21 | _, _ => a22
  end.
Definition e44 (A : M44 R) (i j : nat) : R :=
  let '((a00,a01,a02,a03),(a10,a11,a12,a13),(a20,a21,a22,a23),(a30,a31,a32,a33)) := A in
  match i, j with
  | 0%nat, 0%nat => a00 | 0%nat, 1%nat => a01 | 0%nat, 2%nat => a02 | 0%nat, _ => a03
  | 1%nat, 0%nat => a10 | 1%nat, 1%nat => a11 | 1%nat, 2%nat => a12 | 1%nat, _ => a13
  | 2%nat, 0%nat => a20 | 2%nat, 1%nat => a21 | 2%nat, 2%nat => a22 | 2%nat, _ => a23
  | _, 0%nat => a30 | _, 1%nat => a31 | _, 2%nat => a32 | _, _ => a33
  end.
(* F is differentiable at x, entry by entry, with derivative matrix D *)
Definition is_derive_M33 (F : R -> M33 R) (x : R) (D : M33 R) : Prop :=
  forall i j, (i < 3)%nat -> (j < 3)%nat -> is_derive (fun t => e33 (F t) i j) x (e33 D i j).
Definition is_derive_M44 (F : R -> M44 R) (x : R) (D : M44 R) : Prop :=
  forall i j, (i < 4)%nat -> (j < 4)%nat -> is_derive (fun t => e44 (F t) i j) x (e44 D i j).

(* [S] = skewa(S): the 4x4 matrix form of the twist (v, w), and the 3x3 matrix form of the planar twist (t, w) *)
Definition se3_hat (tw : V6 R) : M44 R :=
  let '(v0,v1,v2,w0,w1,w2) := tw in ((0, - w2, w1, v0), (w2, 0, - w0, v1), (- w1, w0, 0, v2), (0, 0, 0, 0)).
Definition se2_hat (tw : V3 R) : M33 R := let '(t0,t1,w) := tw in ((0, - w, t0), (w, 0, t1), (0, 0, 0)).

(* e33 and e44 send an index beyond the last to the last, so these hold for all i, j *)
Lemma e33_mmul (A B : M33 R) i j :
  e33 (mmul33 Rops A B) i j = e33 A i 0 * e33 B 0 j + e33 A i 1 * e33 B 1 j + e33 A i 2 * e33 B 2 j.
Proof. destruct_tuples. lin_simpl. destruct i as [|[|i]]; destruct j as [|[|j]]; reflexivity. Qed.
Lemma e44_mmul (A B : M44 R) i j :
  e44 (mmul44 Rops A B) i j = e44 A i 0 * e44 B 0 j + e44 A i 1 * e44 B 1 j + e44 A i 2 * e44 B 2 j + e44 A i 3 * e44 B 3 j.
Proof. destruct_tuples. lin_simpl. destruct i as [|[|[|i]]]; destruct j as [|[|[|j]]]; reflexivity. Qed.

Lemma e33_madd (A B : M33 R) i j : e33 (madd33 Rops A B) i j = e33 A i j + e33 B i j.
Proof. destruct_tuples. lin_simpl. destruct i as [|[|i]]; destruct j as [|[|j]]; reflexivity. Qed.

Lemma e33_eta (A : M33 R) :
  A = ((e33 A 0 0, e33 A 0 1, e33 A 0 2), (e33 A 1 0, e33 A 1 1, e33 A 1 2), (e33 A 2 0, e33 A 2 1, e33 A 2 2))%nat.
Proof. destruct_tuples. reflexivity. Qed.
Lemma e44_eta (A : M44 R) :
  A = ((e44 A 0 0, e44 A 0 1, e44 A 0 2, e44 A 0 3), (e44 A 1 0, e44 A 1 1, e44 A 1 2, e44 A 1 3),
       (e44 A 2 0, e44 A 2 1, e44 A 2 2, e44 A 2 3), (e44 A 3 0, e44 A 3 1, e44 A 3 2, e44 A 3 3))%nat.
Proof. destruct_tuples. reflexivity. Qed.
Lemma e33_ext (A B : M33 R) : (forall i j, e33 A i j = e33 B i j) -> A = B.
Proof. intros H. rewrite (e33_eta A), (e33_eta B), !H. reflexivity. Qed.
Lemma e44_ext (A B : M44 R) : (forall i j, e44 A i j = e44 B i j) -> A = B.
Proof. intros H. rewrite (e44_eta A), (e44_eta B), !H. reflexivity. Qed.

Definition P4 (x : nat -> R) (t : R) : R := x 0%nat + x 1%nat * t + x 2%nat * (1 - cos t) + x 3%nat * (t - sin t).

Lemma P4_0 x : P4 x 0 = x 0%nat.
Proof. unfold P4. rewrite cos_0, sin_0. ring. Qed.
Lemma P4_ext x y t : (forall k, x k = y k) -> P4 x t = P4 y t.
Proof. intros E. unfold P4. rewrite !E. reflexivity. Qed.
Lemma P4_lin3 a0 a1 a2 x0 x1 x2 t :
  a0 * P4 x0 t + a1 * P4 x1 t + a2 * P4 x2 t = P4 (fun k => a0 * x0 k + a1 * x1 k + a2 * x2 k) t.
Proof. unfold P4. ring. Qed.
Lemma P4_lin4 a0 a1 a2 a3 x0 x1 x2 x3 t :
  a0 * P4 x0 t + a1 * P4 x1 t + a2 * P4 x2 t + a3 * P4 x3 t = P4 (fun k => a0 * x0 k + a1 * x1 k + a2 * x2 k + a3 * x3 k) t.
Proof. unfold P4. ring. Qed.

Lemma P4_derive x th : x 4%nat = - x 2%nat -> is_derive (P4 x) th (P4 (fun k => x (S k)) th).
Proof. intros H4. unfold P4. auto_derive; [exact I | rewrite H4; ring]. Qed.

(* product rule, entry by entry *)
Lemma is_derive_M33_mul (A B : R -> M33 R) th (A' B' : M33 R) :
  is_derive_M33 A th A' -> is_derive_M33 B th B' ->
  is_derive_M33 (fun t => mmul33 Rops (A t) (B t)) th (madd33 Rops (mmul33 Rops A' (B th)) (mmul33 Rops (A th) B')).
Proof.
  intros HA HB i j Hi Hj.
  assert (P : forall k, (k < 3)%nat ->
    is_derive (fun t => e33 (A t) i k * e33 (B t) k j) th (e33 A' i k * e33 (B th) k j + e33 (A th) i k * e33 B' k j)).
  { intros k Hk. apply (is_derive_mult (fun t => e33 (A t) i k) (fun t => e33 (B t) k j)); [apply HA | apply HB | exact Rmult_comm]; assumption. }
  apply is_derive_ext with (fun t => e33 (A t) i 0%nat * e33 (B t) 0%nat j + e33 (A t) i 1%nat * e33 (B t) 1%nat j + e33 (A t) i 2%nat * e33 (B t) 2%nat j);
    [intro t; symmetry; apply e33_mmul|].
  replace (e33 (madd33 Rops (mmul33 Rops A' (B th)) (mmul33 Rops (A th) B')) i j)
    with ((e33 A' i 0%nat * e33 (B th) 0%nat j + e33 (A th) i 0%nat * e33 B' 0%nat j) + (e33 A' i 1%nat * e33 (B th) 1%nat j + e33 (A th) i 1%nat * e33 B' 1%nat j)
          + (e33 A' i 2%nat * e33 (B th) 2%nat j + e33 (A th) i 2%nat * e33 B' 2%nat j)) by (rewrite e33_madd, !e33_mmul; ring).
  apply (is_derive_plus (fun t => e33 (A t) i 0%nat * e33 (B t) 0%nat j + e33 (A t) i 1%nat * e33 (B t) 1%nat j) (fun t => e33 (A t) i 2%nat * e33 (B t) 2%nat j));
    [apply (is_derive_plus (fun t => e33 (A t) i 0%nat * e33 (B t) 0%nat j) (fun t => e33 (A t) i 1%nat * e33 (B t) 1%nat j))|]; apply P; auto.
Qed.
