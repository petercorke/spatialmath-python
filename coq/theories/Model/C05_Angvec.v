(* C05 -- hand model of the GENERAL path of base.tr2angvec (tr2angvec -> trlog general branch -> vex -> norm, v / theta),
   as the code is since /repo 84bd1d7 / 7d9131b:
       skw = (R - R.T)/2 ; st = norm(vex(skw)) ; theta = atan2(st, (trace(R) - 1)/2) ; L = skw/st*theta
       v = vex(L) ; theta = norm(v) ; (theta, v / theta)          (v / theta since /repo 7d9131b; before: unitvec(v))
   The branch tests around it (iseye, |trace + 1| < 100 eps half-turn branch, iszerovec, st == 0) are NOT part of
   this model: it is tied to the implementation (float correspondence) on rotations by 1e-6 .. pi - 1e-6, where the code
   takes this path; the other paths are covered by the oracle only. *)
From Coq Require Import Reals ZArith Lra Psatz.
From SM Require Import Base.Ops Base.Lin Base.RInst Base.RLin Model.C05_Trig Model.C04_R2qCore.

Section AV.
Context {T : Type} (O : ops T).
Local Notation "0" := (zero O). Local Notation "1" := (one O).
Local Infix "+" := (add O). Local Infix "-" := (sub O). Local Infix "*" := (mul O). Local Infix "/" := (div O).
Local Notation two := (of_Z O 2).

Definition skewpart (R : M33 T) : M33 T :=
  let '((r00,r01,r02),(r10,r11,r12),(r20,r21,r22)) := R in
  (((r00-r00)/two, (r01-r10)/two, (r02-r20)/two), ((r10-r01)/two, (r11-r11)/two, (r12-r21)/two), ((r20-r02)/two, (r21-r12)/two, (r22-r22)/two)).
Definition vex_py (S : M33 T) : V3 T :=
  let '((s00,s01,s02),(s10,s11,s12),(s20,s21,s22)) := S in ((s21 - s12)/two, (s02 - s20)/two, (s10 - s01)/two).
Definition norm_py (v : V3 T) : T := let '(a,b,c) := v in sqrt_ O (0 + a*a + b*b + c*c).
Definition trc (R : M33 T) : T := let '((r00,_,_),(_,r11,_),(_,_,r22)) := R in (r00 + r11 + r22 - 1)/two.

Definition angvec_general (R : M33 T) : V4 T :=
  let skw := skewpart R in
  let st := norm_py (vex_py skw) in
  let theta := atan2_ O st (trc R) in
  let '((k00,k01,k02),(k10,k11,k12),(k20,k21,k22)) := skw in
  let L := ((k00/st*theta, k01/st*theta, k02/st*theta), (k10/st*theta, k11/st*theta, k12/st*theta), (k20/st*theta, k21/st*theta, k22/st*theta)) in
  let v := vex_py L in let n := norm_py v in
  let '(v0,v1,v2) := v in (n, v0/n, v1/n, v2/n).
End AV.

Open Scope R_scope.

(* sin(theta)^2 as seen in the matrix: |vex((R-R')/2)|^2 *)
Definition st2 (M : M33 R) : R :=
  let '((r00,r01,r02),(r10,r11,r12),(r20,r21,r22)) := M in
  ((r21-r12)/2)*((r21-r12)/2) + ((r02-r20)/2)*((r02-r20)/2) + ((r10-r01)/2)*((r10-r01)/2).

Definition rodrigues_ref (th : R) (u : V3 R) : M33 R :=
  madd33 Rops (I33 Rops) (madd33 Rops (mscale33 Rops (sin th) (skew3 Rops u))
                                      (mscale33 Rops (1 - cos th) (mmul33 Rops (skew3 Rops u) (skew3 Rops u)))).

(* the SO(3) identities behind the axis-angle extraction *)
Lemma so3_axis_identities (M : M33 R) : SO3 M ->
  let '((r00,r01,r02),(r10,r11,r12),(r20,r21,r22)) := M in
  let c := (r00 + r11 + r22 - 1)/2 in
  let l0 := (r21-r12)/2 in let l1 := (r02-r20)/2 in let l2 := (r10-r01)/2 in
  l0*l0 + l1*l1 + l2*l2 + c*c = 1 /\
  (1+c)*(r00 - c) = l0*l0 /\ (1+c)*(r11 - c) = l1*l1 /\ (1+c)*(r22 - c) = l2*l2 /\
  (1+c)*((r01+r10)/2) = l0*l1 /\ (1+c)*((r02+r20)/2) = l0*l2 /\ (1+c)*((r12+r21)/2) = l1*l2.
Proof.
  (* with t = trace + 1 and k the skew part these are the entries of  k k' = t * shepperd M  and  t t = t * t *)
  intros H. pose proof (shepperd_row0 M H) as E. destruct M as [[[[r00 r01] r02] [[r10 r11] r12]] [[r20 r21] r22]].
  cbv beta iota zeta. unfold outer4, mscale44, shepperd, row4, nth4 in E. injection E; intros. repeat split; lra.
Qed.

Definition lvec (M : M33 R) : V3 R :=
  let '((r00,r01,r02),(r10,r11,r12),(r20,r21,r22)) := M in ((r21-r12)/2, (r02-r20)/2, (r10-r01)/2).
Definition ctr (M : M33 R) : R := let '((r00,_,_),(_,r11,_),(_,_,r22)) := M in (r00 + r11 + r22 - 1)/2.

(* closed form of the model for ANY matrix with a non-zero skew part *)
Lemma angvec_general_closed_form (M : M33 R) : 0 < st2 M ->
  let s := sqrt (st2 M) in let th := atan2 s (ctr M) in let '(l0,l1,l2) := lvec M in
  angvec_general Rops M = (th, l0/s, l1/s, l2/s).
Proof.
  destruct M as [[[[r00 r01] r02] [[r10 r11] r12]] [[r20 r21] r22]]. unfold st2, lvec, ctr. intros Hst. cbv zeta.
  set (c := (r00 + r11 + r22 - 1)/2) in *. set (l0 := (r21-r12)/2) in *. set (l1 := (r02-r20)/2) in *. set (l2 := (r10-r01)/2) in *.
  set (s := sqrt (l0*l0 + l1*l1 + l2*l2)).
  assert (Hs : 0 < s) by (apply sqrt_lt_R0; exact Hst).
  assert (Hss : s*s = l0*l0 + l1*l1 + l2*l2) by (apply sqrt_sqrt; lra).
  destruct (atan2_pos_lt s c Hs) as [Hth0 Hth1].
  set (th := atan2 s c) in *.
  unfold angvec_general, skewpart, vex_py, norm_py, trc. sm_simpl. fold c.
  (* st is the norm of l, and the norm of v = l / st * theta is theta *)
  match goal with |- context [atan2 (sqrt ?e) c] => replace e with (l0*l0 + l1*l1 + l2*l2) by (unfold l0, l1, l2; field) end.
  fold s. fold th.
  match goal with |- (sqrt ?e, _, _, _) = _ =>
    replace e with (th*th*((l0*l0 + l1*l1 + l2*l2)/(s*s))) by (unfold l0, l1, l2; field; lra) end.
  rewrite <- Hss. replace (s*s/(s*s)) with 1 by (field; lra). rewrite Rmult_1_r, sqrt_square by lra.
  unfold l0, l1, l2. tuple_eq ltac:(first [reflexivity | field; lra]).
Qed.

(* extraction recovers the angle and the axis of Rodrigues' formula (0 < th < pi, unit axis) *)
Theorem angvec_general_recovers (th : R) (u : V3 R) : 0 < th < PI -> normsq3 Rops u = 1 ->
  let '(u0,u1,u2) := u in angvec_general Rops (rodrigues_ref th u) = (th, u0, u1, u2).
Proof.
  intros Hth Hu. destruct u as [[u0 u1] u2]. autounfold with smlin in Hu. sm_simpl.
  assert (Hs : 0 < sin th) by (apply sin_gt_0; lra).
  pose proof (cs_unit th) as Hcs.
  set (M := rodrigues_ref th (u0,u1,u2)).
  assert (L : lvec M = (sin th * u0, sin th * u1, sin th * u2)) by (unfold M, rodrigues_ref, lvec; lin_simpl; tuple_eq ltac:(field)).
  assert (C : ctr M = cos th).
  { unfold M, rodrigues_ref, ctr. lin_simpl.
    transitivity (cos th + (1 - cos th)*(1 - (u0*u0+u1*u1+u2*u2))); [field | rewrite Hu; ring]. }
  assert (S2 : st2 M = sin th * sin th).
  { assert (Q : st2 M = (let '(a,b,c) := lvec M in a*a + b*b + c*c)) by (unfold M, rodrigues_ref, st2, lvec; lin_simpl; reflexivity).
    rewrite Q, L. cbv beta iota. transitivity (sin th * sin th * (u0*u0+u1*u1+u2*u2)); [ring | rewrite Hu; ring]. }
  assert (P : 0 < st2 M) by (rewrite S2; nra).
  pose proof (angvec_general_closed_form M P) as F. cbv zeta in F. rewrite L, C, S2 in F. rewrite sqrt_square in F by lra.
  rewrite atan2_sin_cos in F by lra. etransitivity; [exact F|]. tuple_eq ltac:(first [reflexivity | field; lra]).
Qed.

(* Rodrigues' formula in terms of l = sin th * u:  I + [l] + [l]^2 / (1 + cos th) *)
Lemma rodrigues_of_lvec th c s l0 l1 l2 : cos th = c -> sin th = s -> 0 < s -> c*c + s*s = 1 ->
  rodrigues_ref th (l0/s, l1/s, l2/s)
  = madd33 Rops (I33 Rops) (madd33 Rops (skew3 Rops (l0,l1,l2))
      (mscale33 Rops (/ (1 + c)) (mmul33 Rops (skew3 Rops (l0,l1,l2)) (skew3 Rops (l0,l1,l2))))).
Proof.
  intros <- <- Hs Hu. assert (0 < 1 + cos th) by nra.
  unfold rodrigues_ref. replace (1 - cos th) with (sin th * sin th / (1 + cos th)) by (field_simplify_eq; lra).
  lin_simpl. tuple_eq ltac:(field; lra).
Qed.

Theorem angvec_general_right_inverse (M : M33 R) : SO3 M -> 0 < st2 M ->
  let '(th, a0, a1, a2) := angvec_general Rops M in
  rodrigues_ref th (a0, a1, a2) = M /\ 0 < th < PI /\ a0*a0 + a1*a1 + a2*a2 = 1.
Proof.
  intros H Hst. pose proof (so3_axis_identities M H) as I. pose proof (angvec_general_closed_form M Hst) as E.
  destruct M as [[[[r00 r01] r02] [[r10 r11] r12]] [[r20 r21] r22]]. unfold st2, lvec, ctr in Hst, E. cbv zeta in I, E.
  set (c := (r00 + r11 + r22 - 1)/2) in *. set (l0 := (r21-r12)/2) in *. set (l1 := (r02-r20)/2) in *. set (l2 := (r10-r01)/2) in *.
  set (s := sqrt (l0*l0 + l1*l1 + l2*l2)) in *.
  assert (Hs : 0 < s) by (apply sqrt_lt_R0; exact Hst).
  assert (Hss : s*s = l0*l0 + l1*l1 + l2*l2) by (apply sqrt_sqrt; lra).
  assert (Hu : c*c + s*s = 1) by lra.
  destruct (cs_atan2_unit c s Hu) as [Ec Es].
  destruct (atan2_pos_lt s c Hs) as [Hth0 Hth1].
  rewrite E. split; [|split; [lra|]].
  - (* multiplied by 1 + c, each entry is a linear combination of the axis identities *)
    rewrite (rodrigues_of_lvec _ c s l0 l1 l2 Ec Es Hs Hu). assert (0 < 1 + c) by nra.
    unfold l0, l1, l2 in *. lin_simpl. tuple_eq ltac:(field_simplify_eq; lra).
  - apply Rmult_eq_reg_r with (s*s); [|clear - Hs; nra]. field_simplify; [|lra]. replace (s^2) with (s*s) by ring. lra.
Qed.
