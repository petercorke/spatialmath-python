(* C02 -- hand-written model of SMPose.__pow__ (as of /repo fbf47d0) and the integer power laws.

   code:   X ** n:  n < 0 -> X.inv() ** (-n)   (the CLOSED-FORM inverse of the class: transpose for SO(n),
                              [R', -R' t] for SE(n));   else np.linalg.matrix_power(X.A, n)
   numpy:  matrix_power(a, n), n >= 0: identity for 0, then the n-fold product (n = 1,2,3 directly, larger n by binary
           decomposition -- the same value in exact arithmetic by associativity).
   Model:  mpow mul e inv A n = if n < 0 then pow_nat (inv A) |n| else pow_nat A |n|,  pow_nat A (S k) = pow_nat A k * A,
           with inv := mtr22 / mtr33 / sinv_aff3 / sinv_aff4 (the structured inverses of the four pose classes).
   The exact inverses adjugate/determinant (minv22 ...) are defined as well: Props/C02_a.v, C02_b.v prove that the
   structured inverses coincide with them on the group ("the structured inverse is the true matrix inverse").
   NumPy's matrix_power for n >= 0 is external code that is modelled, not verified (DESIGN.md section 6); the model is
   tied to the implementation on every run (T-num, |n| <= 8) and to the symbolic traces of `X ** n`, |n| <= 4
   (Props/C02_p.v). *)
From Coq Require Import ZArith Lia Reals Lra.
From SM Require Import Base.Ops Base.Lin Base.RInst Base.RLin Model.Quat.

Section Monoid.
Variables (M : Type) (mul : M -> M -> M) (e : M).
Hypothesis assoc : forall a b c, mul (mul a b) c = mul a (mul b c).
Hypothesis id_l : forall a, mul e a = a.
Hypothesis id_r : forall a, mul a e = a.

Fixpoint pow_nat (A : M) (n : nat) : M :=
  match n with 0%nat => e | S k => mul (pow_nat A k) A end.

Definition mpow (inv : M -> M) (A : M) (n : Z) : M :=
  if (n <? 0)%Z then pow_nat (inv A) (Z.abs_nat n) else pow_nat A (Z.abs_nat n).

Lemma pow_nat_closed (P : M -> Prop) A n : P e -> (forall a b, P a -> P b -> P (mul a b)) -> P A -> P (pow_nat A n).
Proof. intros He Hm HA. induction n; cbn [pow_nat]; auto. Qed.

Lemma pow_nat_add A m n : pow_nat A (m + n) = mul (pow_nat A m) (pow_nat A n).
Proof.
  induction n as [|n IH].
  - rewrite Nat.add_0_r. cbn [pow_nat]. symmetry. apply id_r.
  - rewrite Nat.add_succ_r. cbn [pow_nat]. rewrite IH. apply assoc.
Qed.

Lemma pow_nat_succ_l A n : pow_nat A (S n) = mul A (pow_nat A n).
Proof.
  change (S n) with (1 + n)%nat. rewrite pow_nat_add. cbn [pow_nat]. rewrite id_l. reflexivity.
Qed.

(* if B is a two-sided inverse of A then B^n is a two-sided inverse of A^n *)
Lemma pow_nat_inverse A B n : mul A B = e -> mul B A = e ->
  mul (pow_nat A n) (pow_nat B n) = e /\ mul (pow_nat B n) (pow_nat A n) = e.
Proof.
  intros HAB HBA. induction n as [|n [IH1 IH2]].
  - cbn [pow_nat]. split; apply id_l.
  - split.
    + rewrite (pow_nat_succ_l B n). cbn [pow_nat]. rewrite assoc, <- (assoc A B), HAB, id_l. exact IH1.
    + rewrite (pow_nat_succ_l A n). cbn [pow_nat]. rewrite assoc, <- (assoc B A), HBA, id_l. exact IH2.
Qed.

Lemma inverse_unique A B C : mul A B = e -> mul C A = e -> B = C.
Proof. intros H1 H2. rewrite <- (id_l B), <- H2, assoc, H1, id_r. reflexivity. Qed.

(* a map that reverses products and fixes e commutes with powers (used for the transpose) *)
Lemma pow_nat_antihom (f : M -> M) A n : f e = e -> (forall a b, f (mul a b) = mul (f b) (f a)) ->
  pow_nat (f A) n = f (pow_nat A n).
Proof.
  intros He Hf. induction n as [|n IH]; cbn [pow_nat]; [symmetry; exact He|].
  rewrite Hf, <- IH. exact (pow_nat_succ_l (f A) n).
Qed.

Variable inv : M -> M.

Lemma mpow_0 A : mpow inv A 0 = e.
Proof. reflexivity. Qed.

Lemma mpow_1 A : mpow inv A 1 = A.
Proof. unfold mpow. cbn. apply id_l. Qed.

Lemma mpow_succ A n : (0 <= n)%Z -> mpow inv A (n + 1) = mul (mpow inv A n) A.
Proof.
  intros Hn. unfold mpow.
  replace (n + 1 <? 0)%Z with false by (symmetry; apply Z.ltb_ge; lia).
  replace (n <? 0)%Z with false by (symmetry; apply Z.ltb_ge; lia).
  replace (Z.abs_nat (n + 1)) with (S (Z.abs_nat n)) by lia. reflexivity.
Qed.

Lemma mpow_nonneg A n : (0 <= n)%Z -> mpow inv A n = pow_nat A (Z.abs_nat n).
Proof. intros Hn. unfold mpow. replace (n <? 0)%Z with false by (symmetry; apply Z.ltb_ge; lia). reflexivity. Qed.

Lemma mpow_neg A n : (0 < n)%Z -> mpow inv A (- n) = pow_nat (inv A) (Z.abs_nat n).
Proof.
  intros Hn. unfold mpow. replace (- n <? 0)%Z with true by (symmetry; apply Z.ltb_lt; lia).
  replace (Z.abs_nat (- n)) with (Z.abs_nat n) by lia. reflexivity.
Qed.

(* the exponent law for non-negative exponents needs no inverse at all: ANY monoid element *)
Lemma mpow_add_nonneg A m n : (0 <= m)%Z -> (0 <= n)%Z ->
  mpow inv A (m + n) = mul (mpow inv A m) (mpow inv A n).
Proof.
  intros Hm Hn. rewrite !mpow_nonneg by lia.
  replace (Z.abs_nat (m + n)) with (Z.abs_nat m + Z.abs_nat n)%nat by lia. apply pow_nat_add.
Qed.

(* a negative power is the positive power of the inverse: X ** -n = X.inv() ** n, by definition of the code *)
Lemma mpow_neg_is_pow_inv A n : (0 < n)%Z -> mpow inv A (- n) = mpow inv (inv A) n.
Proof. intros Hn. rewrite mpow_neg by lia. rewrite mpow_nonneg by lia. reflexivity. Qed.

Lemma mpow_m1 A : mpow inv A (-1) = inv A.
Proof. unfold mpow. cbn. apply id_l. Qed.

Lemma pow_nat_cancel A B m n : mul A B = e -> mul B A = e -> (n <= m)%nat ->
  mul (pow_nat A m) (pow_nat B n) = pow_nat A (m - n) /\ mul (pow_nat B n) (pow_nat A m) = pow_nat A (m - n).
Proof.
  intros HAB HBA Hle. destruct (pow_nat_inverse A B n HAB HBA) as [I1 I2]. split.
  - replace m with ((m - n) + n)%nat at 1 by lia. rewrite pow_nat_add, assoc, I1. apply id_r.
  - replace m with (n + (m - n))%nat at 1 by lia. rewrite pow_nat_add, <- assoc, I2. apply id_l.
Qed.

(* the exponent law X**(m+n) = X**m * X**n for ALL integers m n *)
Lemma mpow_add A m n : mul A (inv A) = e -> mul (inv A) A = e ->
  mpow inv A (m + n) = mul (mpow inv A m) (mpow inv A n).
Proof.
  intros H1 H2. unfold mpow.
  destruct (Z.ltb_spec m 0) as [Hm|Hm], (Z.ltb_spec n 0) as [Hn|Hn], (Z.ltb_spec (m + n) 0) as [Hs|Hs]; try lia.
  - replace (Z.abs_nat (m + n)) with (Z.abs_nat m + Z.abs_nat n)%nat by lia. apply pow_nat_add.
  - (* m < 0 <= n, m + n < 0 *)
    destruct (pow_nat_cancel (inv A) A (Z.abs_nat m) (Z.abs_nat n) H2 H1) as [E _]; [lia|].
    rewrite E. f_equal. lia.
  - destruct (pow_nat_cancel A (inv A) (Z.abs_nat n) (Z.abs_nat m) H1 H2) as [_ E]; [lia|].
    rewrite E. f_equal. lia.
  - destruct (pow_nat_cancel (inv A) A (Z.abs_nat n) (Z.abs_nat m) H2 H1) as [_ E]; [lia|].
    rewrite E. f_equal. lia.
  - destruct (pow_nat_cancel A (inv A) (Z.abs_nat m) (Z.abs_nat n) H1 H2) as [E _]; [lia|].
    rewrite E. f_equal. lia.
  - replace (Z.abs_nat (m + n)) with (Z.abs_nat m + Z.abs_nat n)%nat by lia. apply pow_nat_add.
Qed.

(* X ** -n is the two-sided inverse of X ** n, for every n, whenever inv A is the inverse of A *)
Lemma mpow_opp_inverse A n : mul A (inv A) = e -> mul (inv A) A = e ->
  mul (mpow inv A n) (mpow inv A (- n)) = e /\ mul (mpow inv A (- n)) (mpow inv A n) = e.
Proof.
  intros H1 H2. rewrite <- !mpow_add by assumption. rewrite Z.add_opp_diag_r, Z.add_opp_diag_l. split; reflexivity.
Qed.
Lemma mpow_neg_inverse A n : mul A (inv A) = e -> mul (inv A) A = e -> (0 <= n)%Z ->
  mul (mpow inv A n) (mpow inv A (- n)) = e /\ mul (mpow inv A (- n)) (mpow inv A n) = e.
Proof. intros H1 H2 _. apply mpow_opp_inverse; assumption. Qed.

(* hence X ** -n is whatever inverts X ** n on the left *)
Lemma mpow_neg_unique A n C : mul A (inv A) = e -> mul (inv A) A = e -> mul C (mpow inv A n) = e ->
  mpow inv A (- n) = C.
Proof.
  intros H1 H2 HC. apply (inverse_unique (mpow inv A n)); [ apply mpow_opp_inverse; assumption | exact HC ].
Qed.

(* when inv reverses products, fixes e and is an involution (the transpose), X ** -n = inv (X ** n) for EVERY A *)
Lemma mpow_neg_antihom A n : inv e = e -> (forall a b, inv (mul a b) = mul (inv b) (inv a)) -> (forall a, inv (inv a) = a) ->
  mpow inv A (- n) = inv (mpow inv A n).
Proof.
  intros He Hf Hi. unfold mpow.
  destruct (Z.ltb_spec n 0) as [Hn|Hn], (Z.ltb_spec (- n) 0) as [Hm|Hm]; try lia.
  - replace (Z.abs_nat (- n)) with (Z.abs_nat n) by lia. rewrite pow_nat_antihom by assumption. symmetry. apply Hi.
  - replace (Z.abs_nat (- n)) with (Z.abs_nat n) by lia. apply pow_nat_antihom; assumption.
  - replace n with 0%Z by lia. symmetry. exact He.
Qed.

(* a property closed under the product and holding for e, A and inv A holds for every integer power *)
Lemma mpow_closed (P : M -> Prop) A : P e -> (forall a b, P a -> P b -> P (mul a b)) -> P A -> P (inv A) ->
  forall n, P (mpow inv A n).
Proof. intros He Hm HA HI n. unfold mpow. destruct (n <? 0)%Z; apply pow_nat_closed; assumption. Qed.

(* in a subgroup P on which inv is the inverse: powers stay in P and X ** -n is the inverse of X ** n *)
Lemma mpow_subgroup (P : M -> Prop) A n : P e -> (forall a b, P a -> P b -> P (mul a b)) -> (forall a, P a -> P (inv a)) ->
  (forall a, P a -> mul a (inv a) = e) -> (forall a, P a -> mul (inv a) a = e) -> P A ->
  P (mpow inv A n) /\ mpow inv A (- n) = inv (mpow inv A n).
Proof.
  intros He Hm Hi Hr Hl HA.
  assert (Hc : P (mpow inv A n)) by (apply mpow_closed; auto).
  split; [exact Hc|]. apply mpow_neg_unique; auto.
Qed.
End Monoid.

Arguments pow_nat {M} mul e A n.
Arguments mpow {M} mul e inv A n.

Section Inv.
Context {T : Type} (O : ops T).
Local Notation "0" := (zero O). Local Notation "1" := (one O).
Local Infix "+" := (add O). Local Infix "-" := (sub O). Local Infix "*" := (mul O).
Local Infix "/" := (div O). Local Notation "- x" := (neg O x).

(* exact inverse of a 2x2 matrix: adjugate / determinant *)
Definition minv22 (A : M22 T) : M22 T :=
  let '((a,b),(c,d)) := A in let dt := a*d - b*c in ((d/dt, (-b)/dt), ((-c)/dt, a/dt)).

(* exact inverse of a 3x3 matrix: adjugate / determinant *)
Definition adj33 (A : M33 T) : M33 T :=
  let '((a00,a01,a02),(a10,a11,a12),(a20,a21,a22)) := A in
  ((a11*a22 - a12*a21, a02*a21 - a01*a22, a01*a12 - a02*a11),
   (a12*a20 - a10*a22, a00*a22 - a02*a20, a02*a10 - a00*a12),
   (a10*a21 - a11*a20, a01*a20 - a00*a21, a00*a11 - a01*a10)).
Definition minv33 (A : M33 T) : M33 T :=
  let dt := det33 O A in
  let '((b00,b01,b02),(b10,b11,b12),(b20,b21,b22)) := adj33 A in
  ((b00/dt, b01/dt, b02/dt), (b10/dt, b11/dt, b12/dt), (b20/dt, b21/dt, b22/dt)).

(* the affine shapes: last row is the constant (0 .. 0 1), whatever the argument's last row was
   (this is what the traced objects hold: see `pose` in props/C02.py) *)
Definition aff3 (A : M33 T) : M33 T := rt2tr2 O (t2r2 A) (transl2 A).
Definition aff4 (A : M44 T) : M44 T := rt2tr3 O (t2r3 A) (transl3 A).
(* exact inverse of [[R t],[0 1]] = [[R^-1, -R^-1 t],[0 1]] *)
Definition minv_aff3 (A : M33 T) : M33 T :=
  let Ri := minv22 (t2r2 A) in rt2tr2 O Ri (vneg2 O (mv22 O Ri (transl2 A))).
Definition minv_aff4 (A : M44 T) : M44 T :=
  let Ri := minv33 (t2r3 A) in rt2tr3 O Ri (vneg3 O (mv33 O Ri (transl3 A))).

(* the closed-form inverses of SE2.inv / SE3.inv (= base.trinv2 / trinv):  [[R', -R' t],[0 1]] *)
Definition sinv_aff3 (A : M33 T) : M33 T :=
  rt2tr2 O (mtr22 (t2r2 A)) (vneg2 O (mv22 O (mtr22 (t2r2 A)) (transl2 A))).
Definition sinv_aff4 (A : M44 T) : M44 T :=
  rt2tr3 O (mtr33 (t2r3 A)) (vneg3 O (mv33 O (mtr33 (t2r3 A)) (transl3 A))).

Definition SO2_pow (A : M22 T) (n : Z) : M22 T := mpow (mmul22 O) (I22 O) mtr22 A n.
Definition SO3_pow (A : M33 T) (n : Z) : M33 T := mpow (mmul33 O) (I33 O) mtr33 A n.
Definition SE2_pow (A : M33 T) (n : Z) : M33 T := mpow (mmul33 O) (I33 O) sinv_aff3 (aff3 A) n.
Definition SE3_pow (A : M44 T) (n : Z) : M44 T := mpow (mmul44 O) (I44 O) sinv_aff4 (aff4 A) n.

(* fixed exponents for the numeric correspondence runs (T-num), |n| <= 8.  They are written with literal `nat`
   exponents so that the extracted OCaml needs nothing from Coq's arithmetic libraries; Props/C02_p.v proves
   pw_<cls>_<n> A = <cls>_pow A n by computation. *)
Definition SO2_pown (A : M22 T) (neg : bool) (k : nat) := pow_nat (mmul22 O) (I22 O) (if neg then mtr22 A else A) k.
Definition SO3_pown (A : M33 T) (neg : bool) (k : nat) := pow_nat (mmul33 O) (I33 O) (if neg then mtr33 A else A) k.
Definition SE2_pown (A : M33 T) (neg : bool) (k : nat) :=
  pow_nat (mmul33 O) (I33 O) (if neg then sinv_aff3 (aff3 A) else aff3 A) k.
Definition SE3_pown (A : M44 T) (neg : bool) (k : nat) :=
  pow_nat (mmul44 O) (I44 O) (if neg then sinv_aff4 (aff4 A) else aff4 A) k.
Definition pw_SO2_m8 A := SO2_pown A true 8.
Definition pw_SO2_m7 A := SO2_pown A true 7.
Definition pw_SO2_m6 A := SO2_pown A true 6.
Definition pw_SO2_m5 A := SO2_pown A true 5.
Definition pw_SO2_m4 A := SO2_pown A true 4.
Definition pw_SO2_m3 A := SO2_pown A true 3.
Definition pw_SO2_m2 A := SO2_pown A true 2.
Definition pw_SO2_m1 A := SO2_pown A true 1.
Definition pw_SO2_p0 A := SO2_pown A false 0.
Definition pw_SO2_p1 A := SO2_pown A false 1.
Definition pw_SO2_p2 A := SO2_pown A false 2.
Definition pw_SO2_p3 A := SO2_pown A false 3.
Definition pw_SO2_p4 A := SO2_pown A false 4.
Definition pw_SO2_p5 A := SO2_pown A false 5.
Definition pw_SO2_p6 A := SO2_pown A false 6.
Definition pw_SO2_p7 A := SO2_pown A false 7.
Definition pw_SO2_p8 A := SO2_pown A false 8.
Definition pw_SO3_m8 A := SO3_pown A true 8.
Definition pw_SO3_m7 A := SO3_pown A true 7.
Definition pw_SO3_m6 A := SO3_pown A true 6.
Definition pw_SO3_m5 A := SO3_pown A true 5.
Definition pw_SO3_m4 A := SO3_pown A true 4.
Definition pw_SO3_m3 A := SO3_pown A true 3.
Definition pw_SO3_m2 A := SO3_pown A true 2.
Definition pw_SO3_m1 A := SO3_pown A true 1.
Definition pw_SO3_p0 A := SO3_pown A false 0.
Definition pw_SO3_p1 A := SO3_pown A false 1.
Definition pw_SO3_p2 A := SO3_pown A false 2.
Definition pw_SO3_p3 A := SO3_pown A false 3.
Definition pw_SO3_p4 A := SO3_pown A false 4.
Definition pw_SO3_p5 A := SO3_pown A false 5.
Definition pw_SO3_p6 A := SO3_pown A false 6.
Definition pw_SO3_p7 A := SO3_pown A false 7.
Definition pw_SO3_p8 A := SO3_pown A false 8.
Definition pw_SE2_m8 A := SE2_pown A true 8.
Definition pw_SE2_m7 A := SE2_pown A true 7.
Definition pw_SE2_m6 A := SE2_pown A true 6.
Definition pw_SE2_m5 A := SE2_pown A true 5.
Definition pw_SE2_m4 A := SE2_pown A true 4.
Definition pw_SE2_m3 A := SE2_pown A true 3.
Definition pw_SE2_m2 A := SE2_pown A true 2.
Definition pw_SE2_m1 A := SE2_pown A true 1.
Definition pw_SE2_p0 A := SE2_pown A false 0.
Definition pw_SE2_p1 A := SE2_pown A false 1.
Definition pw_SE2_p2 A := SE2_pown A false 2.
Definition pw_SE2_p3 A := SE2_pown A false 3.
Definition pw_SE2_p4 A := SE2_pown A false 4.
Definition pw_SE2_p5 A := SE2_pown A false 5.
Definition pw_SE2_p6 A := SE2_pown A false 6.
Definition pw_SE2_p7 A := SE2_pown A false 7.
Definition pw_SE2_p8 A := SE2_pown A false 8.
Definition pw_SE3_m8 A := SE3_pown A true 8.
Definition pw_SE3_m7 A := SE3_pown A true 7.
Definition pw_SE3_m6 A := SE3_pown A true 6.
Definition pw_SE3_m5 A := SE3_pown A true 5.
Definition pw_SE3_m4 A := SE3_pown A true 4.
Definition pw_SE3_m3 A := SE3_pown A true 3.
Definition pw_SE3_m2 A := SE3_pown A true 2.
Definition pw_SE3_m1 A := SE3_pown A true 1.
Definition pw_SE3_p0 A := SE3_pown A false 0.
Definition pw_SE3_p1 A := SE3_pown A false 1.
Definition pw_SE3_p2 A := SE3_pown A false 2.
Definition pw_SE3_p3 A := SE3_pown A false 3.
Definition pw_SE3_p4 A := SE3_pown A false 4.
Definition pw_SE3_p5 A := SE3_pown A false 5.
Definition pw_SE3_p6 A := SE3_pown A false 6.
Definition pw_SE3_p7 A := SE3_pown A false 7.
Definition pw_SE3_p8 A := SE3_pown A false 8.
(* UnitQuaternion.__pow__:  UnitQuaternion([base.qpow(q._A, n) for q in self]) -- iterating `self` re-normalises the
   element (base.unit), base.qpow is the loop model of Model/Quat.v, and the constructor normalises the result *)
Definition qunit (q : V4 T) : V4 T :=
  let '(s,x,y,z) := q in let n := sqrt_ O (s*s + x*x + y*y + z*z) in (s/n, x/n, y/n, z/n).
Definition UQ_pow (q : V4 T) (n : Z) : V4 T := qunit (qpow_model O (qunit q) n).
Definition UQ_pown (q : V4 T) (neg : bool) (k : nat) : V4 T :=
  qunit (let r := qpow_nat O (qunit q) k in if neg then qconj O r else r).
Definition pw_UQ_m8 q := UQ_pown q true 8.
Definition pw_UQ_m7 q := UQ_pown q true 7.
Definition pw_UQ_m6 q := UQ_pown q true 6.
Definition pw_UQ_m5 q := UQ_pown q true 5.
Definition pw_UQ_m4 q := UQ_pown q true 4.
Definition pw_UQ_m3 q := UQ_pown q true 3.
Definition pw_UQ_m2 q := UQ_pown q true 2.
Definition pw_UQ_m1 q := UQ_pown q true 1.
Definition pw_UQ_p0 q := UQ_pown q false 0.
Definition pw_UQ_p1 q := UQ_pown q false 1.
Definition pw_UQ_p2 q := UQ_pown q false 2.
Definition pw_UQ_p3 q := UQ_pown q false 3.
Definition pw_UQ_p4 q := UQ_pown q false 4.
Definition pw_UQ_p5 q := UQ_pown q false 5.
Definition pw_UQ_p6 q := UQ_pown q false 6.
Definition pw_UQ_p7 q := UQ_pown q false 7.
Definition pw_UQ_p8 q := UQ_pown q false 8.
End Inv.

Create HintDb c02 discriminated.
#[export] Hint Unfold minv22 adj33 minv33 aff3 aff4 minv_aff3 minv_aff4 sinv_aff3 sinv_aff4 qunit : c02.

(* gen_unfold and gen_ring of Base/RLin.v, unfolding the inverses of this file and trinv_ref as well *)
Ltac c02_unfold := autounfold with smgen smlin c02 in *; sm_simpl.
Ltac c02_simpl := autounfold with smlin c02 in *; sm_simpl.
Ltac c02_ring := cbv zeta; intros; destruct_tuples; unfold trinv_ref, trinv2_ref; c02_unfold; tuple_eq ltac:(ring).

(* the affine shapes on the groups *)
Lemma aff4_SE3 (X : M44 R) : SE3 X -> aff4 Rops X = X.
Proof. intros H. symmetry. apply SE3_decompose. exact H. Qed.
Lemma aff3_SE2 (X : M33 R) : SE2 X -> aff3 Rops X = X.
Proof. intros H. symmetry. apply SE2_decompose. exact H. Qed.
Lemma sinv_aff4_is_trinv (X : M44 R) : sinv_aff4 Rops X = trinv_ref X.
Proof. reflexivity. Qed.
Lemma sinv_aff3_is_trinv2 (X : M33 R) : sinv_aff3 Rops X = trinv2_ref X.
Proof. reflexivity. Qed.

(* on the rotation groups the transpose is the true matrix inverse (adjugate / determinant): every entry equals its
   cofactor, det = 1 *)
Lemma minv33_SO3 : forall X : M33 R, SO3 X -> minv33 Rops X = mtr33 X.
Proof.
  intros X H. destruct_tuples. so3_facts H. c02_simpl.
  match goal with |- context [_ / ?d] => replace d with 1 by lra end.
  tuple_eq ltac:(lra).
Qed.
Lemma minv22_SO2 : forall X : M22 R, SO2 X -> minv22 Rops X = mtr22 X.
Proof.
  intros X H. destruct_tuples. pose proof (SO2_columns _ _ _ _ H) as (?&?&?). unfold SO2 in H. destruct H as (?&?&?&?).
  c02_simpl. match goal with |- context [_ / ?d] => replace d with 1 by lra end.
  unfold Rdiv; rewrite ?Rinv_1, ?Rmult_1_r. tuple_eq ltac:(lra).
Qed.

(* powers of a homogeneous transform, blockwise:  [R t]^k = [R^k, (R^(k-1) + ... + R + I) t] *)
Fixpoint pow_transl3 (Rm : M33 R) (t : V3 R) (k : nat) : V3 R :=
  match k with
  | O => (0, 0, 0)%R
  | S j => vadd3 Rops (mv33 Rops (pow_nat (mmul33 Rops) (I33 Rops) Rm j) t) (pow_transl3 Rm t j)
  end.
Lemma pow_nat_rt3 (Rm : M33 R) (t : V3 R) (k : nat) :
  pow_nat (mmul44 Rops) (I44 Rops) (rt2tr3 Rops Rm t) k
  = rt2tr3 Rops (pow_nat (mmul33 Rops) (I33 Rops) Rm k) (pow_transl3 Rm t k).
Proof.
  induction k as [|k IH]; cbn [pow_nat pow_transl3]; [ symmetry; apply rt2tr3_I | rewrite IH, mmul44_rt; reflexivity ].
Qed.
Fixpoint pow_transl2 (Rm : M22 R) (t : V2 R) (k : nat) : V2 R :=
  match k with
  | O => (0, 0)%R
  | S j => vadd2 Rops (mv22 Rops (pow_nat (mmul22 Rops) (I22 Rops) Rm j) t) (pow_transl2 Rm t j)
  end.
Lemma pow_nat_rt2 (Rm : M22 R) (t : V2 R) (k : nat) :
  pow_nat (mmul33 Rops) (I33 Rops) (rt2tr2 Rops Rm t) k
  = rt2tr2 Rops (pow_nat (mmul22 Rops) (I22 Rops) Rm k) (pow_transl2 Rm t k).
Proof.
  induction k as [|k IH]; cbn [pow_nat pow_transl2]; [ symmetry; apply rt2tr2_I | rewrite IH, mmul33_rt; reflexivity ].
Qed.

Lemma qunit_unit (q : V4 R) : qnormsq Rops q = 1 -> qunit Rops q = q.
Proof.
  intros H. destruct_tuples. c02_simpl.
  match goal with |- context [sqrt ?e] => replace e with 1 by lra end. rewrite sqrt_1.
  tuple_eq ltac:(field).
Qed.

(* the loop model of base.qpow (Model/Quat.v: the conjugate of the |n|-fold product when n < 0) is the integer power
   of the monoid of quaternions with the conjugate as formal inverse, for EVERY quaternion *)
Lemma qpow_model_is_mpow (q : V4 R) (n : Z) : qpow_model Rops q n = mpow (qmul Rops) (qone Rops) (qconj Rops) q n.
Proof.
  unfold qpow_model, mpow. destruct (n <? 0)%Z; [|reflexivity]. symmetry.
  apply (pow_nat_antihom _ _ _ qmul_assoc qmul_one_l qmul_one_r (qconj Rops)); [ lin_ring | exact qconj_mul ].
Qed.
Lemma qpow_model_unit (q : V4 R) (n : Z) : qnormsq Rops q = 1 -> qnormsq Rops (qpow_model Rops q n) = 1.
Proof.
  intros H. rewrite qpow_model_is_mpow.
  apply (mpow_closed _ _ _ _ (fun p => qnormsq Rops p = 1)); auto using qone_unit, qmul_unit, qconj_unit.
Qed.
