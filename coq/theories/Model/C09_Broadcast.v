(* C09 -- hand-written model of the sequence-broadcasting helpers of spatialmath-python 0.8.9

     SMUserList.binop   spatialmath/smuserlist.py:507-597
     SMUserList.unop    spatialmath/smuserlist.py:632-670
     SMPose._op2        spatialmath/super_pose.py:1342-1393
     the accessor shapes of pose3d.py / pose2d.py / quaternion.py / twist.py / super_pose.py that branch on
     len(self) == 1

   over [list A] with an ABSTRACT element operation.  The model mirrors the code as it is: the same
   nesting of the tests (first on len(left) == 1, then on the right operand), the same way the result list is
   built (one-element list, bare value, comprehension over right, over left, zip), and the exception the code
   raises.  It is tied to the implementation on every run by props/C09.py, which calls the real helpers with a
   tagging operation on operands of every length 0..6 and compares with [Eval vm_compute] of these definitions.

   No Reals, no axioms. *)
From Coq Require Import List Arith Bool Lia PeanoNat.
Import ListNotations.
Set Implicit Arguments.

Inductive exn := ValueError | TypeError | AssertionError | AttributeError | IndexError.

Inductive result (X : Type) := Ok (x : X) | Err (e : exn).
Arguments Ok {X} x.
Arguments Err {X} e.

(* what a helper hands back: a bare element value or a Python list of them.  PNone (a None result) is kept in the type so
   that [to_list] stays partial, but no modelled helper returns it (C09_op2_never_none). *)
Inductive pyval (C : Type) := Bare (c : C) | PList (l : list C) | PNone.
Arguments Bare {C} c.
Arguments PList {C} l.
Arguments PNone {C}.

(* the constructor call  cls(helper(...))  that wraps the helper's value again: a bare value becomes a
   one-element object, a list becomes the object's data (arghandler).  None has no data. *)
Definition to_list {C} (v : pyval C) : option (list C) :=
  match v with Bare c => Some [c] | PList l => Some l | PNone => None end.

(* the right operand of binop/_op2: a scalar, or an object holding a list of values *)
Inductive rhs (B : Type) := Scalar (s : B) | Seq (l : list B).
Arguments Scalar {B} s.
Arguments Seq {B} l.

Section Broadcast.
  Context {A B C : Type} (op : A -> B -> C).

  (* [op(x, y) for (x, y) in zip(l, r)] *)
  Fixpoint zip_with (l : list A) (r : list B) : list C :=
    match l, r with
    | a :: l', b :: r' => op a b :: zip_with l' r'
    | _, _ => []
    end.

  (* SMUserList.binop(left, right, op, list1):
       if len(left) == 1:
           if isscalar(right):      return [op(left._A, right)]       if list1 else op(left.A, right)
           elif len(right) == 1:    return [op(left._A, right._A)]    if list1 else op(left.A, right.A)
           else:                    return [op(left.A, x) for x in right.A]
       else:
           if isscalar(right):      return [op(x, right) for x in left.A]
           elif len(right) == 1:    return [op(x, right.A) for x in left.A]
           elif len(left) == len(right):  return [op(x, y) for (x, y) in zip(left.A, right.A)]
           else:                    raise ValueError
     (.A / ._A of an object is its single value when it holds one, else the list of its values) *)
  Definition binop (list1 : bool) (left : list A) (right : rhs B) : result (pyval C) :=
    match left with
    | [a] =>
        match right with
        | Scalar s => Ok (if list1 then PList [op a s] else Bare (op a s))
        | Seq [b] => Ok (if list1 then PList [op a b] else Bare (op a b))
        | Seq r => Ok (PList (map (fun x => op a x) r))
        end
    | _ =>
        match right with
        | Scalar s => Ok (PList (map (fun x => op x s) left))
        | Seq [b] => Ok (PList (map (fun x => op x b) left))
        | Seq r => if length left =? length r then Ok (PList (zip_with left r)) else Err ValueError
        end
    end.

  (* SMPose._op2(left, right, op).  The right operand is classified by the caller-visible tests
       isinstance(right, left.__class__)                         -> SameClass r
       isscalar(right) or ndarray of the pose's shape            -> Scalar-like (modelled by [Scalar])
       anything else                                             -> raise ValueError('bad operands')
     (since fix 5b6b922; before it the function fell off the end of its if/elif chain and returned None) *)
  Inductive rhs2 := SameClass (r : list B) | ScalarLike (s : B) | Foreign.

  Definition op2 (left : list A) (right : rhs2) : result (pyval C) :=
    match right with
    | SameClass r =>
        match left with
        | [a] =>
            match r with
            | [b] => Ok (Bare (op a b))
            | _ => Ok (PList (map (fun x => op a x) r))
            end
        | _ =>
            match r with
            | [b] => Ok (PList (map (fun x => op x b) left))
            | _ => if length left =? length r then Ok (PList (zip_with left r)) else Err ValueError
            end
        end
    | ScalarLike s =>
        match left with
        | [a] => Ok (Bare (op a s))
        | _ => Ok (PList (map (fun x => op x s) left))
        end
    | Foreign => Err ValueError
    end.
End Broadcast.

Section Unary.
  Context {A C : Type} (f : A -> C).

  (* SMUserList.unop(op, matrix):  [op(x) for x in self.data]   (np.vstack of the same list when matrix=True:
     row i of the stack is element i, checked by the correspondence run) *)
  Definition unop (l : list A) : list C := map f l.

  (* accessor shape 1 (SO3.R, SO2.R, inv, SE3.t, rpy, eul, angvec, det, Quaternion.s/v/vec/norm/matrix/log, SO2.theta, SE2.xyt,
     Twist.S/v/w/se3/isprismatic/isrevolute/isunit/unit/theta/pitch/pole/exp/SE3, UnitQuaternion.R/rpy/eul/angvec/SO3/SE3 ...):
         if len(self) == 1: return f(self.A)   else: return [f(x) for x in self.A] *)
  Definition acc_branch1 (l : list A) : pyval C :=
    match l with [a] => Bare (f a) | _ => PList (map f l) end.

  (* accessor shape 2 (SMPose.log):  r = [f(x) for x in self.data];  return r[0] if len(r) == 1 else r *)
  Definition acc_map_unwrap (l : list A) : pyval C :=
    match map f l with [c] => Bare c | r => PList r end.

  (* accessor shape 3 (conj, UnitQuaternion.inv, Twist.inv, __pow__, norm of poses, unit):
         return cls([f(x) for x in self])  *)
  Definition acc_map (l : list A) : pyval C := PList (map f l).

  (* Since the library's commits 77cb365, a77df5a (Twist3.v/.w/.theta/.pitch/.pole, Twist2.v/.w read self.data[0] before) and
     42a8032, 3803e60, 5d38d76, 7b9d842, 3804c67, 98c866c, 4908bfb (SO2.R, angvec, Quaternion.log, UnitQuaternion.SO3()/SE3(),
     Twist.exp()/SE3()/SE2(), isprismatic/isrevolute, unit handed the whole object to a single-value kernel before) every
     per-value accessor has the acc_branch1 shape. *)
End Unary.

Section Interp.
  (* SMPose.interp(s) (super_pose.py:364-434):
        s = getvector(s)
        if len(s) > 1:  assert len(self) == 1;  return cls([interp(self.A, _s) for _s in s])
        else:           return cls([interp(x, s[0]) for x in self.data])
     s is never empty (getvector of a scalar has one element); an empty s takes the else branch and s[0] raises *)
  Context {A S C : Type} (f : A -> S -> C).
  Definition pose_interp (l : list A) (s : list S) : result (list C) :=
    match s with
    | [] => Err IndexError
    | [s0] => Ok (map (fun x => f x s0) l)
    | _ => match l with
           | [a] => Ok (map (fun x => f a x) s)
           | _ => Err AssertionError
           end
    end.
End Interp.

Section Spec.
  Context {A B C : Type} (op : A -> B -> C).

  (* the value an operand contributes to result position i: the lone value when it holds exactly one *)
  Definition pick {X} (i : nat) (l : list X) : option X :=
    match l with [a] => Some a | _ => nth_error l i end.

  Definition pick_rhs (i : nat) (r : rhs B) : option B :=
    match r with Scalar s => Some s | Seq l => pick i l end.

  (* broadcast length: 1 x n -> n, m x 1 -> m, m x m -> m   (for m, n >= 1 this is max m n) *)
  Definition blen (m n : nat) : nat := if m =? 1 then n else m.

  Definition rlen (r : rhs B) : nat := match r with Scalar _ => 1 | Seq l => length l end.

  Definition app2 (x : option A) (y : option B) : option C :=
    match x, y with Some a, Some b => Some (op a b) | _, _ => None end.
End Spec.

Lemma nth_error_zip_with : forall A B C (op : A -> B -> C) l r i,
  nth_error (zip_with op l r) i = app2 op (nth_error l i) (nth_error r i).
Proof.
  induction l as [|a l IH]; intros [|b r] [|i]; simpl; try reflexivity.
  - destruct (nth_error l i); reflexivity.
  - apply IH.
Qed.

Lemma length_zip_with : forall A B C (op : A -> B -> C) l r,
  length (zip_with op l r) = Nat.min (length l) (length r).
Proof. induction l as [|a l IH]; intros [|b r]; simpl; auto. Qed.

Lemma zip_with_map_combine : forall A B C (op : A -> B -> C) l r,
  zip_with op l r = map (fun p => op (fst p) (snd p)) (combine l r).
Proof. induction l as [|a l IH]; intros [|b r]; simpl; auto. now rewrite IH. Qed.

Lemma pick_single : forall X (a : X) i, pick i [a] = Some a.
Proof. reflexivity. Qed.

Lemma pick_multi : forall X (l : list X) i, length l <> 1 -> pick i l = nth_error l i.
Proof. intros X [|a [|b l]] i H; simpl in *; try reflexivity. lia. Qed.

(* what binop and _op2 build from two lists when they do not raise, and when that is *)
Section Data.
  Context {A B C : Type} (op : A -> B -> C).
  Definition bdata (l : list A) (r : list B) : list C :=
    match l, r with
    | [a], _ => map (op a) r
    | _, [b] => map (fun x => op x b) l
    | _, _ => zip_with op l r
    end.
  Definition broadcastable (m n : nat) : Prop := m = 1 \/ n = 1 \/ m = n.

  (* a scalar right operand behaves as a sequence holding that one value *)
  Definition rdata (r : rhs B) : list B := match r with Scalar s => [s] | Seq l => l end.

  Lemma binop_rdata list1 l r : binop op list1 l r = binop op list1 l (Seq (rdata r)).
  Proof. destruct r as [s|r]; [destruct l as [|a [|a' l]]|]; reflexivity. Qed.

  Lemma rlen_rdata r : rlen r = length (rdata r).
  Proof. destruct r; reflexivity. Qed.

  Lemma pick_rhs_rdata i r : pick_rhs i r = pick i (rdata r).
  Proof. destruct r; reflexivity. Qed.

  Lemma binop_seq_data list1 l r v : binop op list1 l (Seq r) = Ok v ->
    to_list v = Some (bdata l r) /\ broadcastable (length l) (length r).
  Proof.
    unfold binop, broadcastable. destruct l as [|a [|a' l]]; destruct r as [|b [|b' r]]; cbn [length];
      try (destruct list1; intros [= <-]; auto; fail); try (intros [= <-]; auto; fail).
    destruct (Nat.eqb_spec (S (S (length l))) (S (S (length r)))); [intros [= <-]; auto | discriminate].
  Qed.

  Lemma op2_same_binop list1 l r : length l <> 1 \/ length r <> 1 ->
    op2 op l (SameClass r) = binop op list1 l (Seq r).
  Proof. destruct l as [|a [|a' l]]; destruct r as [|b [|b' r]]; cbn; intros; try reflexivity; lia. Qed.

  (* the only failure is the ValueError for lengths that do not broadcast *)
  Lemma binop_seq_err list1 l r e : binop op list1 l (Seq r) = Err e ->
    e = ValueError /\ ~ broadcastable (length l) (length r).
  Proof.
    unfold binop, broadcastable. destruct l as [|a [|a' l]]; destruct r as [|b [|b' r]]; cbn [length];
      try (destruct list1; discriminate); try discriminate.
    - intros [= <-]. split; [reflexivity|lia].
    - intros [= <-]. split; [reflexivity|lia].
    - destruct (Nat.eqb_spec (S (S (length l))) (S (S (length r)))); [discriminate|].
      intros [= <-]. split; [reflexivity|lia].
  Qed.

  Lemma bdata_length l r : broadcastable (length l) (length r) -> length (bdata l r) = blen (length l) (length r).
  Proof.
    unfold broadcastable, blen. destruct l as [|a [|a' l]]; destruct r as [|b [|b' r]];
      cbn -[Nat.min]; rewrite ?map_length, ?length_zip_with; cbn; lia.
  Qed.

  Lemma bdata_nth l r i : i < length (bdata l r) -> nth_error (bdata l r) i = app2 op (pick i l) (pick i r).
  Proof.
    destruct l as [|a [|a' l]]; destruct r as [|b [|b' r]]; cbn [bdata pick];
      rewrite ?map_length, ?nth_error_map, ?nth_error_zip_with; try reflexivity; cbn [length]; intros Hi.
    destruct i as [|i]; [reflexivity|lia].
  Qed.

  Lemma binop_length_of list1 l r v d :
    binop op list1 l r = Ok v -> to_list v = Some d -> length d = blen (length l) (rlen r).
  Proof.
    rewrite binop_rdata, rlen_rdata. intros H Hd. apply binop_seq_data in H. destruct H as [Hd' Hc].
    rewrite Hd in Hd'. injection Hd' as ->. now apply bdata_length.
  Qed.
End Data.

Lemma blen_max : forall m n, 1 <= m -> 1 <= n -> broadcastable m n -> blen m n = Nat.max m n.
Proof. intros m n Hm Hn H. unfold broadcastable in H. unfold blen. destruct (Nat.eqb_spec m 1); lia. Qed.

Lemma zip_with_diag : forall A C (op : A -> A -> C) l, zip_with op l l = map (fun x => op x x) l.
Proof. induction l as [|a l IH]; simpl; [reflexivity|now rewrite IH]. Qed.

(* Histories.
   An object is its current list of values: the list mutators of SMUserList change that list and nothing else, and every
   helper / accessor above is a function of the CURRENT list.  (The mutators themselves are property C10's subject; here
   only their effect on the data list matters.)  props/C09.py ties this to the implementation with history cells:
   evaluate, mutate, evaluate again, compare with a fresh object holding the current values. *)
Inductive mutation (A : Type) :=
  | MAppend (a : A) | MExtend (l : list A) | MInsert (i : nat) (a : A) | MPopLast | MPop (i : nat)
  | MReverse | MDel (i : nat) | MSet (i : nat) (a : A).
Arguments MPopLast {A}.
Arguments MPop {A} i.
Arguments MReverse {A}.
Arguments MDel {A} i.

Fixpoint set_nth {A} (i : nat) (a : A) (l : list A) : list A :=
  match l, i with
  | [], _ => []
  | _ :: t, 0 => a :: t
  | h :: t, S i' => h :: set_nth i' a t
  end.

Definition apply_mutation {A} (m : mutation A) (l : list A) : list A :=
  match m with
  | MAppend a => l ++ [a]
  | MExtend e => l ++ e
  | MInsert i a => firstn i l ++ a :: skipn i l
  | MPopLast => removelast l
  | MPop i | MDel i => firstn i l ++ skipn (S i) l
  | MReverse => rev l
  | MSet i a => set_nth i a l
  end.

Definition run_history {A} (h : list (mutation A)) (l : list A) : list A :=
  fold_left (fun acc m => apply_mutation m acc) h l.
