(* C07 -- hand-written models of the membership / unit / zero / skew predicates of spatialmath.base,
   generic over the ops record (R for the theorems, OCaml floats for the correspondence run).

   Every function mirrors the code AS IT IS (line numbers of /repo/spatialmath/base):
     transformsNd.py:294  isR(R, tol=100)      norm(R@R.T - eye) < tol*_eps and det(R) > 0           (since fix 8457767; it was det(R@R.T))
     transformsNd.py:321  isskew(S, tol=10)    norm(S + S.T) < tol*_eps
     transformsNd.py:349  isskewa(S, tol=10)   norm(S[:-1,:-1] + S[:-1,:-1].T) < tol*_eps and all(S[-1,:] == 0)
     transformsNd.py:379  iseye(S, tol=10)     norm(S - eye) < tol*_eps
     transforms3d.py:305  ishom(T, check, tol) shape and (not check or (isR(T[:3,:3], tol) and all(T[3,:] == [0,0,0,1])))
     transforms3d.py:337  isrot(R, check, tol) shape and (not check or isR(R, tol))
     transforms2d.py:208  ishom2(T, check)     shape and (not check or (isR(T[:2,:2]) and all(T[2,:] == [0,0,1])))     (isR's default tol)
     transforms2d.py:242  isrot2(R, check)     shape and (not check or isR(R))
     vectors.py:217       isunitvec(v, tol=10) abs(norm(v) - 1) < tol*_eps
     vectors.py:239       iszerovec(v, tol=10) norm(v) < tol*_eps
     vectors.py:260       iszero(v, tol=10)    abs(v) < tol*_eps
     vectors.py:281       isunittwist(v, tol)  isunitvec(v[3:6]) or (norm(v[3:6]) < tol*_eps and isunitvec(v[0:3]))
     vectors.py:319       isunittwist2(v, tol) isunitvec(v[2]) or (abs(v[2]) < tol*_eps and isunitvec(v[0:2]))
     quaternions.py:112   isunit(q, tol=100)   isunitvec(q, tol)                                      (since fix f745aab; it was iszerovec)
   and the class-level validity tests
     twist.py:362   Twist3.isvalid (4x4 form)  iszerovec(diag) and iszerovec(v[3,:]) and (not check or isskew(v[:3,:3]))
     twist.py:1159  Twist2.isvalid (3x3 form)  iszerovec(diag) and iszerovec(v[2,:]) and (not check or isskew(v[:2,:2]))
     quaternion.py:1051 UnitQuaternion.isvalid x.shape == (4,) and (not check or isunitvec(x))
   The shape tests are part of the types here; the dispatch on shapes is modelled in C07_Ctor.v.
   Membership is a property of the VALUES an array holds, not of the dtype they are stored in: the model has one scalar type
   and no dtype parameter, so every theorem (rejection band at 1e-6, tolerance tol*eps with eps = 2^-52 exactly) applies to
   the stored values whatever their dtype.  The implementation side of this is checked by the dtype sweep of props/C07.py
   (float32, float16, int64, longdouble, object arrays: a value beyond the band must not be accepted, an exact member must be).
   `tol` is a parameter (the Python keyword argument); the defaults are regenerated from the source AST into
   gen/Consts_C07.v on every run, together with a check of the comparison skeleton of each function. *)
From Coq Require Import ZArith Bool.
From SM Require Import Base.Ops Base.Lin.

Section Pred.
Context {T : Type} (O : ops T).
Local Notation "0" := (zero O). Local Notation "1" := (one O).
Local Infix "+" := (add O). Local Infix "-" := (sub O). Local Infix "*" := (mul O).

(* np.linalg.norm: Frobenius norm of a matrix, 2-norm of a vector, |x| of a scalar *)
Definition normsq2 (a : V2 T) : T := dot2 O a a.
Definition norm2 (a : V2 T) : T := sqrt_ O (normsq2 a).
Definition norm4 (a : V4 T) : T := sqrt_ O (dot4 O a a).
Definition frosq22 (A : M22 T) : T := let '(r0,r1) := A in normsq2 r0 + normsq2 r1.
Definition fro22 (A : M22 T) : T := sqrt_ O (frosq22 A).
Definition frosq33 (A : M33 T) : T := let '(r0,r1,r2) := A in normsq3 O r0 + normsq3 O r1 + normsq3 O r2.
Definition fro33 (A : M33 T) : T := sqrt_ O (frosq33 A).
Definition madd22 (A B : M22 T) : M22 T := let '(a0,a1) := A in let '(b0,b1) := B in (vadd2 O a0 b0, vadd2 O a1 b1).
Definition msub22 (A B : M22 T) : M22 T := let '(a0,a1) := A in let '(b0,b1) := B in (vsub2 O a0 b0, vsub2 O a1 b1).

Definition thr (tol : T) : T := tol * eps O.

(* the quantity each predicate bounds ("defect") *)
Definition orth_defect2 (R : M22 T) : T := fro22 (msub22 (mmul22 O R (mtr22 R)) (I22 O)).
Definition orth_defect3 (R : M33 T) : T := fro33 (msub33 O (mmul33 O R (mtr33 R)) (I33 O)).
Definition skew_defect2 (S : M22 T) : T := fro22 (madd22 S (mtr22 S)).
Definition skew_defect3 (S : M33 T) : T := fro33 (madd33 O S (mtr33 S)).
Definition eye_defect3 (S : M33 T) : T := fro33 (msub33 O S (I33 O)).
Definition unit_defect2 (v : V2 T) : T := abs_ O (norm2 v - 1).
Definition unit_defect3 (v : V3 T) : T := abs_ O (norm3 O v - 1).
Definition unit_defect4 (v : V4 T) : T := abs_ O (norm4 v - 1).

(* ---- isR ---- *)
Definition isR2 (tol : T) (R : M22 T) : bool :=
  ltb O (orth_defect2 R) (thr tol) && ltb O 0 (det22 O R).
Definition isR3 (tol : T) (R : M33 T) : bool :=
  ltb O (orth_defect3 R) (thr tol) && ltb O 0 (det33 O R).

(* ---- np.all(row == [..]) ---- *)
Definition row_eq3 (r : V3 T) (a b c : T) : bool :=
  let '(r0,r1,r2) := r in eqb O r0 a && eqb O r1 b && eqb O r2 c.
Definition row_eq4 (r : V4 T) (a b c d : T) : bool :=
  let '(r0,r1,r2,r3) := r in eqb O r0 a && eqb O r1 b && eqb O r2 c && eqb O r3 d.

(* ---- isrot / ishom / isrot2 / ishom2 (check flag explicit) ---- *)
Definition isrot (check : bool) (tol : T) (R : M33 T) : bool := negb check || isR3 tol R.
Definition ishom (check : bool) (tol : T) (A : M44 T) : bool :=
  negb check || (isR3 tol (t2r3 A) && row_eq4 (lastrow4 A) 0 0 0 1).
Definition isrot2 (check : bool) (tolR : T) (R : M22 T) : bool := negb check || isR2 tolR R.
Definition ishom2 (check : bool) (tolR : T) (A : M33 T) : bool :=
  negb check || (isR2 tolR (t2r2 A) && row_eq3 (lastrow3 A) 0 0 1).

(* ---- isskew / isskewa / iseye ---- *)
Definition isskew2 (tol : T) (S : M22 T) : bool := ltb O (skew_defect2 S) (thr tol).
Definition isskew3 (tol : T) (S : M33 T) : bool := ltb O (skew_defect3 S) (thr tol).
Definition isskewa3 (tol : T) (S : M33 T) : bool := isskew2 tol (t2r2 S) && row_eq3 (lastrow3 S) 0 0 0.
Definition isskewa4 (tol : T) (S : M44 T) : bool := isskew3 tol (t2r3 S) && row_eq4 (lastrow4 S) 0 0 0 0.
Definition iseye3 (tol : T) (S : M33 T) : bool := ltb O (eye_defect3 S) (thr tol).

(* ---- vectors ---- *)
Definition isunitvec2 (tol : T) (v : V2 T) : bool := ltb O (unit_defect2 v) (thr tol).
Definition isunitvec3 (tol : T) (v : V3 T) : bool := ltb O (unit_defect3 v) (thr tol).
Definition isunitvec4 (tol : T) (v : V4 T) : bool := ltb O (unit_defect4 v) (thr tol).
Definition iszerovec2 (tol : T) (v : V2 T) : bool := ltb O (norm2 v) (thr tol).
Definition iszerovec3 (tol : T) (v : V3 T) : bool := ltb O (norm3 O v) (thr tol).
Definition iszerovec4 (tol : T) (v : V4 T) : bool := ltb O (norm4 v) (thr tol).
Definition iszero (tol : T) (x : T) : bool := ltb O (abs_ O x) (thr tol).

(* quaternions.isunit: the body is isunitvec(q, tol=tol) *)
Definition isunit_q (tol : T) (q : V4 T) : bool := isunitvec4 tol q.

Definition isunittwist (tol : T) (s : V6 T) : bool :=
  let '(v0,v1,v2,w0,w1,w2) := s in
  isunitvec3 tol (w0,w1,w2) || (ltb O (norm3 O (w0,w1,w2)) (thr tol) && isunitvec3 tol (v0,v1,v2)).
(* isunitvec of the scalar v[2]: np.linalg.norm of a 0-d value is its absolute value *)
Definition isunittwist2 (tol : T) (s : V3 T) : bool :=
  let '(v0,v1,w) := s in
  ltb O (abs_ O (abs_ O w - 1)) (thr tol) || (ltb O (abs_ O w) (thr tol) && isunitvec2 tol (v0,v1)).

(* ---- class-level validity tests ---- *)
Definition diag3 (A : M33 T) : V3 T := let '((a,_,_),(_,b,_),(_,_,c)) := A in (a,b,c).
Definition diag4 (A : M44 T) : V4 T := let '((a,_,_,_),(_,b,_,_),(_,_,c,_),(_,_,_,d)) := A in (a,b,c,d).
Definition tw3_isvalid_mat (check : bool) (tz ts : T) (A : M44 T) : bool :=
  iszerovec4 tz (diag4 A) && iszerovec4 tz (lastrow4 A) && (negb check || isskew3 ts (t2r3 A)).
Definition tw2_isvalid_mat (check : bool) (tz ts : T) (A : M33 T) : bool :=
  iszerovec3 tz (diag3 A) && iszerovec3 tz (lastrow3 A) && (negb check || isskew2 ts (t2r2 A)).
Definition uq_isvalid (check : bool) (tol : T) (q : V4 T) : bool := negb check || isunitvec4 tol q.
End Pred.

Create HintDb c07 discriminated.
#[export] Hint Unfold normsq2 norm2 norm4 frosq22 fro22 frosq33 fro33 madd22 msub22 thr orth_defect2 orth_defect3
  skew_defect2 skew_defect3 eye_defect3 unit_defect2 unit_defect3 unit_defect4 isR2 isR3 row_eq3 row_eq4 isrot ishom
  isrot2 ishom2 isskew2 isskew3 isskewa3 isskewa4 iseye3 isunitvec2 isunitvec3 isunitvec4 iszerovec2 iszerovec3
  iszerovec4 iszero isunit_q isunittwist isunittwist2 diag3 diag4 tw3_isvalid_mat tw2_isvalid_mat uq_isvalid : c07.

(* check=True / check=False instances (the correspondence run calls these; `check` is a Python keyword argument) *)
Section PredOn.
Context {T : Type} (O : ops T).
Definition isrot_on := isrot O true.      Definition isrot_off := isrot O false.
Definition ishom_on := ishom O true.      Definition ishom_off := ishom O false.
Definition isrot2_on := isrot2 O true.    Definition ishom2_on := ishom2 O true.
Definition tw3_valid_on := tw3_isvalid_mat O true.   Definition tw3_valid_off := tw3_isvalid_mat O false.
Definition tw2_valid_on := tw2_isvalid_mat O true.
Definition uq_valid_on := uq_isvalid O true.
End PredOn.
