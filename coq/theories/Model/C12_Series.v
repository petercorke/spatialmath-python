(* C12 -- the exponential of a pure quaternion is its power series in the Hamilton algebra (L-real, Coquelicot):
   for a unit vector u and every theta, with q = (0, u),
        Sum_k theta^k / k! * (q^k)_c  =  (cos theta, sin theta * u)_c          for each of the four components c,
   where q^k is [qpow_nat] -- the model of base.qpow (iterated Hamilton product, tied to the code by C12's traces).
   The closed form is what Quaternion.exp computes on (0, theta u) (C12_ExpLog.qexp; see Props/C12_series.v).
   The entry sequences of the powers of q satisfy x_{k+4} = - x_{k+2} (q q = -1): period4_exp_series of Model/C03_Series.v. *)
From Coq Require Import Reals Lia.
From Coquelicot Require Import Coquelicot.
From SM Require Import Base.Ops Base.Lin Base.RInst Base.RLin Model.Quat Model.C03_Ode Model.C03_Series.
Open Scope R_scope.

Definition e4 (p : V4 R) (c : nat) : R :=
  let '(s,x,y,z) := p in match c with 0%nat => s | 1%nat => x | 2%nat => y | _ => z end.
Definition qscale (k : R) (p : V4 R) : V4 R := let '(s,x,y,z) := p in (k*s, k*x, k*y, k*z).
Definition qexp_coeff (q : V4 R) (c k : nat) : R := e4 (qpow_nat Rops q k) c / INR (fact k).

Lemma e4_qscale k p c : e4 (qscale k p) c = k * e4 p c.
Proof. destruct p as [[[s x] y] z]. destruct c as [|[|[|c]]]; reflexivity. Qed.

(* a pure quaternion squares to minus its squared length, so p q q = - |u|^2 p for every p *)
Lemma pure_sq (u0 u1 u2 : R) (p : V4 R) :
  qmul Rops (qmul Rops p (0, u0, u1, u2)) (0, u0, u1, u2) = qscale (- (u0*u0 + u1*u1 + u2*u2)) p.
Proof. unfold qscale. lin_ring. Qed.

Section Pure.
Variables (u0 u1 u2 th : R).
Hypothesis Hu : u0*u0 + u1*u1 + u2*u2 = 1.
Let q : V4 R := (0, u0, u1, u2).

Lemma qpow_pure_SS k : qpow_nat Rops q (S (S k)) = qscale (-1) (qpow_nat Rops q k).
Proof. cbn [qpow_nat]. unfold q. rewrite pure_sq, Hu. reflexivity. Qed.

Theorem pure_qexp_is_series c : is_pseries (qexp_coeff q c) th (e4 (cos th, sin th * u0, sin th * u1, sin th * u2) c).
Proof.
  replace (e4 (cos th, sin th * u0, sin th * u1, sin th * u2) c) with (P4 (fun k => e4 (qpow_nat Rops q k) c) th).
  - apply (period4_exp_series (fun k => e4 (qpow_nat Rops q k) c)). intro k.
    replace (k + 4)%nat with (S (S (k + 2))) by lia. rewrite qpow_pure_SS, e4_qscale. ring.
  - unfold P4. rewrite !qpow_pure_SS, !e4_qscale. cbn [qpow_nat]. unfold q. lin_simpl.
    destruct c as [|[|[|c]]]; cbn [e4]; ring.
Qed.
End Pure.
