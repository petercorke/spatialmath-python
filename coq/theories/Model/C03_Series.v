(* C03 -- the closed forms of trexp / trexp2 ARE the exponential, entry by entry (Coquelicot over Coq's Reals).
   The generators H met here -- [u]x for a unit axis, the 4x4 matrix [S] of a unit twist, the 3x3 matrix of a unit planar
   twist -- all satisfy H^4 = - H^2, so every entry sequence x_k = (H^k)_ij has x_{k+4} = - x_{k+2}.  For such a sequence
        Sum_k x_k theta^k / k!  =  x0 + x1 theta + x2 (1 - cos theta) + x3 (theta - sin theta)  =  P4 x theta
   (period4_exp_series; sin and cos of Coq's Reals are themselves defined as the sums of their power series, Rtrigo_def:
   exist_cos, exist_sin, which is what the proof uses).  A matrix function Phi whose entries are P4 of the entries of the powers
   of H is therefore the sum of the exponential series of theta H, and it solves Phi' = H Phi = Phi H, Phi(0) = I.  Each closed
   form is brought to that shape once (rodrigues_P4, trexp_unit_P4, trexp2_unit_P4). *)
From Coq Require Import Reals Lra Lia Nsatz.
From Coquelicot Require Import Coquelicot.
From SM Require Import Base.Ops Base.Lin Base.RInst Base.RLin Model.C03_ExpLog Model.C03_Lemmas Model.C03_Ode.
Open Scope R_scope.

Fixpoint mpow33 (A : M33 R) (k : nat) : M33 R :=
  match k with O => I33 Rops | S k' => mmul33 Rops A (mpow33 A k') end.
Fixpoint mpow44 (A : M44 R) (k : nat) : M44 R :=
  match k with O => I44 Rops | S k' => mmul44 Rops A (mpow44 A k') end.

(* coefficient of theta^k in entry (i,j) of the exponential series of theta*A :  (A^k)_ij / k! *)
Definition expm_coeff (A : M33 R) (i j k : nat) : R := e33 (mpow33 A k) i j / INR (fact k).
Definition expm_coeff44 (A : M44 R) (i j k : nat) : R := e44 (mpow44 A k) i j / INR (fact k).

Definition delta (i j : nat) : R := e33 (I33 Rops) i j.

Definition mscale44 (c : R) (A : M44 R) : M44 R :=
  let '((a00,a01,a02,a03),(a10,a11,a12,a13),(a20,a21,a22,a23),(a30,a31,a32,a33)) := A in
  ((c*a00,c*a01,c*a02,c*a03),(c*a10,c*a11,c*a12,c*a13),(c*a20,c*a21,c*a22,c*a23),(c*a30,c*a31,c*a32,c*a33)).
Definition vscale6r (c : R) (S : V6 R) : V6 R := let '(a0,a1,a2,a3,a4,a5) := S in (c*a0, c*a1, c*a2, c*a3, c*a4, c*a5).

(* scalar side: the series that DEFINE cos and sin in Coq's Reals, as Coquelicot series *)
Lemma cos_series (th : R) : is_series (fun n => cos_n n * (th ^ 2) ^ n) (cos th).
Proof.
  apply is_series_Reals. unfold cos. destruct (exist_cos (Rsqr th)) as [a Ha]. unfold cos_in in Ha.
  replace (th ^ 2) with (Rsqr th) by (unfold Rsqr; ring). exact Ha.
Qed.

Lemma sin_series (th : R) : exists a, is_series (fun n => sin_n n * (th ^ 2) ^ n) a /\ sin th = th * a.
Proof.
  unfold sin. destruct (exist_sin (Rsqr th)) as [a Ha]. exists a. split; [|reflexivity].
  apply is_series_Reals. unfold sin_in in Ha. replace (th ^ 2) with (Rsqr th) by (unfold Rsqr; ring). exact Ha.
Qed.

(* a sequence supported at 0 *)
Lemma is_series_at0 (v : R) : is_series (fun n => match n with O => v | S _ => 0 end) v.
Proof.
  apply filterlim_ext with (fun _ : nat => v); [|apply filterlim_const].
  intro n. induction n as [|n IH]; [rewrite sum_O; reflexivity|].
  rewrite sum_Sn, <- IH. unfold plus; simpl. ring.
Qed.

(* states a goal of Coquelicot's [plus] / [scal] on R as an equation in R, so that ring and field see it *)
Ltac req := match goal with |- ?a = ?b => change (@eq R a b) end.

(* c0 at n = 0 plus (-d) times the cos / sin coefficients *)
Lemma series_cos_shape (th c0 d : R) (f : nat -> R) :
  f 0%nat = c0 -> (forall m, f (S m) = - d * cos_n (S m)) ->
  is_series (fun n => f n * (th ^ 2) ^ n) (c0 + d * (1 - cos th)).
Proof.
  intros H0 HS. replace (c0 + d * (1 - cos th)) with ((c0 + d) + (- d) * cos th) by ring.
  apply is_series_ext with (fun n => plus (match n with O => c0 + d | S _ => 0 end) (scal (- d) (cos_n n * (th ^ 2) ^ n))).
  - intro n. symmetry. transitivity ((match n with O => c0 + d | S _ => 0 end) + (- d) * (cos_n n * (th ^ 2) ^ n)); [|reflexivity].
    destruct n as [|m]; [rewrite H0; unfold cos_n; req; simpl; field | rewrite HS; req; ring].
  - apply (is_series_plus _ _ (c0 + d) ((- d) * cos th)); [apply is_series_at0|].
    apply (is_series_scal (- d) _ (cos th)). apply cos_series.
Qed.

Lemma series_sin_shape (th c0 d : R) (f : nat -> R) :
  f 0%nat = c0 -> (forall m, f (S m) = - d * sin_n (S m)) ->
  exists a, is_series (fun n => f n * (th ^ 2) ^ n) (c0 + d - d * a) /\ sin th = th * a.
Proof.
  intros H0 HS. destruct (sin_series th) as [a [Ha Hs]]. exists a. split; [|exact Hs].
  replace (c0 + d - d * a) with ((c0 + d) + (- d) * a) by ring.
  apply is_series_ext with (fun n => plus (match n with O => c0 + d | S _ => 0 end) (scal (- d) (sin_n n * (th ^ 2) ^ n))).
  - intro n. symmetry. transitivity ((match n with O => c0 + d | S _ => 0 end) + (- d) * (sin_n n * (th ^ 2) ^ n)); [|reflexivity].
    destruct n as [|m]; [rewrite H0; unfold sin_n; req; simpl; field | rewrite HS; req; ring].
  - apply (is_series_plus _ _ (c0 + d) ((- d) * a)); [apply is_series_at0|].
    apply (is_series_scal (- d) _ a). exact Ha.
Qed.

Section Period4.
Variable x : nat -> R.
Hypothesis Hx : forall k, x (k + 4)%nat = - x (k + 2)%nat.

Lemma period4_parity m : x (2 * S m)%nat = (-1) ^ m * x 2%nat /\ x (2 * S m + 1)%nat = (-1) ^ m * x 3%nat.
Proof.
  induction m as [|m [IHe IHo]]; [split; simpl; ring|]. split.
  - replace (2 * S (S m))%nat with (2 * m + 4)%nat by lia. rewrite Hx.
    replace (2 * m + 2)%nat with (2 * S m)%nat by lia. rewrite IHe. simpl. ring.
  - replace (2 * S (S m) + 1)%nat with (2 * m + 1 + 4)%nat by lia. rewrite Hx.
    replace (2 * m + 1 + 2)%nat with (2 * S m + 1)%nat by lia. rewrite IHo. simpl. ring.
Qed.

(* the step from (-1)^m p / n! to the coefficient (-1)^(m+1) / n! of cos_n, sin_n *)
Let alt_coeff (s p f : R) : f <> 0 -> s * p / f = - p * (-1 * s / f).
Proof. intros Hf. field. exact Hf. Qed.

Theorem period4_exp_series th : is_pseries (fun k => x k / INR (fact k)) th (P4 x th).
Proof.
  destruct (series_sin_shape th (x 1%nat) (x 3%nat) (fun n => x (2 * n + 1)%nat / INR (fact (2 * n + 1)))) as [a [Ho Hs]].
  - simpl. field.
  - intro m. destruct (period4_parity m) as [_ ->]. apply alt_coeff, INR_fact_neq_0.
  - replace (P4 x th) with ((x 0%nat + x 2%nat * (1 - cos th)) + th * (x 1%nat + x 3%nat - x 3%nat * a))
      by (unfold P4; rewrite Hs; ring).
    apply is_pseries_odd_even; apply is_pseries_R; [|exact Ho].
    apply (series_cos_shape th (x 0%nat) (x 2%nat) (fun n => x (2 * n)%nat / INR (fact (2 * n)))).
    + simpl. field.
    + intro m. destruct (period4_parity m) as [-> _]. apply alt_coeff, INR_fact_neq_0.
Qed.
End Period4.

Lemma e33_mscale (c : R) (A : M33 R) i j : e33 (mscale33 Rops c A) i j = c * e33 A i j.
Proof. destruct_tuples. lin_simpl. destruct i as [|[|i]]; destruct j as [|[|j]]; reflexivity. Qed.

Lemma mmul44_scale_l (c : R) (A B : M44 R) : mmul44 Rops (mscale44 c A) B = mscale44 c (mmul44 Rops A B).
Proof. unfold mscale44. lin_ring. Qed.
Lemma mmul44_scale_r (c : R) (A B : M44 R) : mmul44 Rops A (mscale44 c B) = mscale44 c (mmul44 Rops A B).
Proof. unfold mscale44. lin_ring. Qed.
Lemma mscale44_mscale (c d : R) (A : M44 R) : mscale44 c (mscale44 d A) = mscale44 (c * d) A.
Proof. unfold mscale44. lin_ring. Qed.
Lemma mscale44_one (A : M44 R) : mscale44 1 A = A.
Proof. unfold mscale44. lin_ring. Qed.
Lemma e44_mscale (c : R) (A : M44 R) i j : e44 (mscale44 c A) i j = c * e44 A i j.
Proof. destruct_tuples. destruct i as [|[|[|i]]]; destruct j as [|[|[|j]]]; reflexivity. Qed.

Lemma mpow33_comm (A : M33 R) k : mmul33 Rops A (mpow33 A k) = mmul33 Rops (mpow33 A k) A.
Proof.
  induction k as [|k IH]; cbn [mpow33]; [rewrite mmul33_I_r, mmul33_I_l; reflexivity|].
  rewrite mmul33_assoc, <- IH. reflexivity.
Qed.
Lemma mpow44_comm (A : M44 R) k : mmul44 Rops A (mpow44 A k) = mmul44 Rops (mpow44 A k) A.
Proof.
  induction k as [|k IH]; cbn [mpow44]; [rewrite mmul44_I_r, mmul44_I_l; reflexivity|].
  rewrite mmul44_assoc, <- IH. reflexivity.
Qed.

(* 3x3 generator A with A^4 = - A^2, and Phi with entries P4 of the entries of the powers of A *)
Section Period33.
Variables (A : M33 R) (Phi : R -> M33 R).
Hypothesis HA : mpow33 A 4 = mscale33 Rops (-1) (mpow33 A 2).
Hypothesis HPhi : forall t i j, e33 (Phi t) i j = P4 (fun k => e33 (mpow33 A k) i j) t.

Lemma mpow33_period k : mpow33 A (k + 4) = mscale33 Rops (-1) (mpow33 A (k + 2)).
Proof. induction k as [|k IH]; [exact HA|]. cbn [Nat.add mpow33]. rewrite IH. apply mmul33_scale_r. Qed.

Lemma period33_entry i j k : e33 (mpow33 A (k + 4)) i j = - e33 (mpow33 A (k + 2)) i j.
Proof. rewrite mpow33_period, e33_mscale. ring. Qed.

Theorem period4_is_expm_series33 th i j : is_pseries (expm_coeff A i j) th (P4 (fun k => e33 (mpow33 A k) i j) th).
Proof. exact (period4_exp_series (fun k => e33 (mpow33 A k) i j) (period33_entry i j) th). Qed.

Theorem period4_solves_ode33 th :
  is_derive_M33 Phi th (mmul33 Rops A (Phi th)) /\ mmul33 Rops A (Phi th) = mmul33 Rops (Phi th) A /\ Phi 0 = I33 Rops.
Proof.
  assert (HD : forall i j, e33 (mmul33 Rops A (Phi th)) i j = P4 (fun k => e33 (mpow33 A (S k)) i j) th).
  { intros i j. rewrite e33_mmul, !HPhi, P4_lin3. apply P4_ext. intro k. cbn [mpow33]. rewrite e33_mmul. reflexivity. }
  split; [|split].
  - intros i j _ _. rewrite HD. apply is_derive_ext with (P4 (fun k => e33 (mpow33 A k) i j)); [intro t; symmetry; apply HPhi|].
    apply P4_derive. exact (period33_entry i j 0).
  - apply e33_ext. intros i j. rewrite HD, e33_mmul, !HPhi, !(Rmult_comm (P4 _ th)), P4_lin3. apply P4_ext. intro k.
    cbn [mpow33]. rewrite mpow33_comm, e33_mmul. ring.
  - apply e33_ext. intros i j. rewrite HPhi. apply P4_0.
Qed.
End Period33.

(* the same for a 4x4 generator *)
Section Period44.
Variables (A : M44 R) (Phi : R -> M44 R).
Hypothesis HA : mpow44 A 4 = mscale44 (-1) (mpow44 A 2).
Hypothesis HPhi : forall t i j, e44 (Phi t) i j = P4 (fun k => e44 (mpow44 A k) i j) t.

Lemma mpow44_period k : mpow44 A (k + 4) = mscale44 (-1) (mpow44 A (k + 2)).
Proof. induction k as [|k IH]; [exact HA|]. cbn [Nat.add mpow44]. rewrite IH. apply mmul44_scale_r. Qed.

Lemma period44_entry i j k : e44 (mpow44 A (k + 4)) i j = - e44 (mpow44 A (k + 2)) i j.
Proof. rewrite mpow44_period, e44_mscale. ring. Qed.

Theorem period4_is_expm_series44 th i j : is_pseries (expm_coeff44 A i j) th (P4 (fun k => e44 (mpow44 A k) i j) th).
Proof. exact (period4_exp_series (fun k => e44 (mpow44 A k) i j) (period44_entry i j) th). Qed.

Theorem period4_solves_ode44 th :
  is_derive_M44 Phi th (mmul44 Rops A (Phi th)) /\ mmul44 Rops A (Phi th) = mmul44 Rops (Phi th) A /\ Phi 0 = I44 Rops.
Proof.
  assert (HD : forall i j, e44 (mmul44 Rops A (Phi th)) i j = P4 (fun k => e44 (mpow44 A (S k)) i j) th).
  { intros i j. rewrite e44_mmul, !HPhi, P4_lin4. apply P4_ext. intro k. cbn [mpow44]. rewrite e44_mmul. reflexivity. }
  split; [|split].
  - intros i j _ _. rewrite HD. apply is_derive_ext with (P4 (fun k => e44 (mpow44 A k) i j)); [intro t; symmetry; apply HPhi|].
    apply P4_derive. exact (period44_entry i j 0).
  - apply e44_ext. intros i j. rewrite HD, e44_mmul, !HPhi, !(Rmult_comm (P4 _ th)), P4_lin4. apply P4_ext. intro k.
    cbn [mpow44]. rewrite mpow44_comm, e44_mmul. ring.
  - apply e44_ext. intros i j. rewrite HPhi. apply P4_0.
Qed.
End Period44.

(* A^3 = - A: then P4 of the powers of A is  I + sin theta A + (1 - cos theta) A^2 *)
Section Cube.
Variable A : M33 R.
Hypothesis HA : mmul33 Rops A (mmul33 Rops A A) = mscale33 Rops (-1) A.

Lemma cube_pow3 : mpow33 A 3 = mscale33 Rops (-1) A.
Proof. cbn [mpow33]. rewrite mmul33_I_r. exact HA. Qed.

Lemma cube_pow4 : mpow33 A 4 = mscale33 Rops (-1) (mpow33 A 2).
Proof. change (mpow33 A 4) with (mmul33 Rops A (mpow33 A 3)). rewrite cube_pow3, mmul33_scale_r. cbn [mpow33]. rewrite mmul33_I_r. reflexivity. Qed.

Lemma cube_P4 th i j :
  P4 (fun k => e33 (mpow33 A k) i j) th = delta i j + sin th * e33 A i j + (1 - cos th) * e33 (mmul33 Rops A A) i j.
Proof. unfold P4. rewrite cube_pow3, e33_mscale. cbn [mpow33]. rewrite !mmul33_I_r. unfold delta. ring. Qed.

Theorem cube_is_expm_series th i j :
  is_pseries (expm_coeff A i j) th (delta i j + sin th * e33 A i j + (1 - cos th) * e33 (mmul33 Rops A A) i j).
Proof. rewrite <- cube_P4. exact (period4_is_expm_series33 A cube_pow4 th i j). Qed.
End Cube.

(* so(3): A = [u]x, u a unit axis, Phi = rodrigues_th u *)
Lemma skew3_cube_unit (u : V3 R) : normsq3 Rops u = 1 ->
  mmul33 Rops (skew3 Rops u) (mmul33 Rops (skew3 Rops u) (skew3 Rops u)) = mscale33 Rops (-1) (skew3 Rops u).
Proof. intros Hu. rewrite skew3_cube, Hu. reflexivity. Qed.

Lemma e33_rodrigues (u : V3 R) th i j :
  e33 (rodrigues_th Rops u th) i j
  = delta i j + sin th * e33 (skew3 Rops u) i j + (1 - cos th) * e33 (mmul33 Rops (skew3 Rops u) (skew3 Rops u)) i j.
Proof.
  unfold delta, rodrigues_th. destruct u as [[u0 u1] u2]. c03_simpl.
  destruct i as [|[|i]]; destruct j as [|[|j]]; cbn [e33]; ring.
Qed.

Section SO3series.
Variables (u : V3 R) (th : R).
Hypothesis Hu : normsq3 Rops u = 1.

Lemma rodrigues_P4 t i j : e33 (rodrigues_th Rops u t) i j = P4 (fun k => e33 (mpow33 (skew3 Rops u) k) i j) t.
Proof. rewrite (cube_P4 _ (skew3_cube_unit u Hu)). apply e33_rodrigues. Qed.

Theorem rodrigues_is_expm_series i j : is_pseries (expm_coeff (skew3 Rops u) i j) th (e33 (rodrigues_th Rops u th) i j).
Proof. rewrite rodrigues_P4. exact (period4_is_expm_series33 _ (cube_pow4 _ (skew3_cube_unit u Hu)) th i j). Qed.

Theorem rodrigues_solves_ode :
  is_derive_M33 (fun t => rodrigues_th Rops u t) th (mmul33 Rops (skew3 Rops u) (rodrigues_th Rops u th)) /\
  mmul33 Rops (skew3 Rops u) (rodrigues_th Rops u th) = mmul33 Rops (rodrigues_th Rops u th) (skew3 Rops u) /\
  rodrigues_th Rops u 0 = I33 Rops.
Proof. exact (period4_solves_ode33 _ (rodrigues_th Rops u) (cube_pow4 _ (skew3_cube_unit u Hu)) rodrigues_P4 th). Qed.
End SO3series.

(* se(3): A = [S] for a unit twist S = (v, w), |w| = 1, Phi = trexp_unit S.
   [S]^(k+1) = [[K^(k+1), K^k v], [0, 0]] with K = [w]x, so [S]^4 = - [S]^2 follows from K^3 = - K. *)
Lemma hat_mul_Ab v0 v1 v2 w0 w1 w2 (M : M33 R) (p : V3 R) :
  mmul44 Rops (se3_hat (v0,v1,v2,w0,w1,w2)) (Ab2M Rops M p) =
  Ab2M Rops (mmul33 Rops (skew3 Rops (w0,w1,w2)) M) (mv33 Rops (skew3 Rops (w0,w1,w2)) p).
Proof. destruct_tuples. unfold se3_hat. c03_simpl. tuple_eq ltac:(ring). Qed.

Lemma mpow44_hat v0 v1 v2 w0 w1 w2 k :
  mpow44 (se3_hat (v0,v1,v2,w0,w1,w2)) (S k) =
  Ab2M Rops (mpow33 (skew3 Rops (w0,w1,w2)) (S k)) (mv33 Rops (mpow33 (skew3 Rops (w0,w1,w2)) k) (v0,v1,v2)).
Proof.
  induction k as [|k IH].
  - cbn [mpow44 mpow33]. rewrite mmul33_I_r, mv33_I. unfold se3_hat. c03_simpl. tuple_eq ltac:(ring).
  - change (mpow44 ?A (S (S k))) with (mmul44 Rops A (mpow44 A (S k))). rewrite IH, hat_mul_Ab.
    f_equal. cbn [mpow33]. rewrite mv33_mmul. reflexivity.
Qed.

Lemma Ab2M_scale (c : R) (M N : M33 R) (p : V3 R) :
  Ab2M Rops (mscale33 Rops c M) (mv33 Rops (mscale33 Rops c N) p) = mscale44 c (Ab2M Rops M (mv33 Rops N p)).
Proof. destruct_tuples. unfold mscale44. c03_simpl. tuple_eq ltac:(ring). Qed.

Section SE3series.
Variables (Kt : thr) (v0 v1 v2 w0 w1 w2 th : R).
Let tw : V6 R := (v0,v1,v2,w0,w1,w2).
Let w : V3 R := (w0,w1,w2).
Hypothesis HK : thr_ok Kt.
Hypothesis Hw : normsq3 Rops w = 1.

Lemma se3_hat_pow4 : mpow44 (se3_hat tw) 4 = mscale44 (-1) (mpow44 (se3_hat tw) 2).
Proof.
  unfold tw. rewrite !mpow44_hat. fold w.
  rewrite (cube_pow4 _ (skew3_cube_unit w Hw)), (cube_pow3 _ (skew3_cube_unit w Hw)), Ab2M_scale.
  cbn [mpow33]. rewrite mmul33_I_r. reflexivity.
Qed.

Lemma trexp_unit_P4 t i j : e44 (trexp_unit Rops Kt tw t) i j = P4 (fun k => e44 (mpow44 (se3_hat tw) k) i j) t.
Proof.
  unfold P4, tw. rewrite !mpow44_hat. fold w. rewrite (cube_pow3 _ (skew3_cube_unit w Hw)).
  cbn [mpow33 mpow44]. rewrite !mmul33_I_r, mv33_I.
  unfold trexp_unit. rewrite rodrigues3_with_unit by assumption.
  unfold w, rodrigues_th, Vmat. cbn [cos_ sin_ Rops]. generalize (cos t) (sin t). intros c s. c03_simpl.
  destruct i as [|[|[|i]]]; destruct j as [|[|[|j]]]; cbn [e44]; ring.
Qed.

Theorem trexp_unit_is_expm_series i j :
  is_pseries (expm_coeff44 (se3_hat tw) i j) th (e44 (trexp_unit Rops Kt tw th) i j).
Proof. rewrite trexp_unit_P4. exact (period4_is_expm_series44 _ se3_hat_pow4 th i j). Qed.

Theorem trexp_unit_solves_ode :
  is_derive_M44 (fun t => trexp_unit Rops Kt tw t) th (mmul44 Rops (se3_hat tw) (trexp_unit Rops Kt tw th)) /\
  mmul44 Rops (se3_hat tw) (trexp_unit Rops Kt tw th) = mmul44 Rops (trexp_unit Rops Kt tw th) (se3_hat tw) /\
  trexp_unit Rops Kt tw 0 = I44 Rops.
Proof. exact (period4_solves_ode44 _ (trexp_unit Rops Kt tw) se3_hat_pow4 trexp_unit_P4 th). Qed.
End SE3series.

(* se(2): A = [S] for a unit planar twist S = (t0, t1, w), w = +-1, Phi = trexp2_unit S *)
Lemma se2_hat_cube t0 t1 w :
  mmul33 Rops (se2_hat (t0,t1,w)) (mmul33 Rops (se2_hat (t0,t1,w)) (se2_hat (t0,t1,w))) = mscale33 Rops (- (w * w)) (se2_hat (t0,t1,w)).
Proof. unfold se2_hat. lin_ring. Qed.

Section SE2series.
Variables (Kt : thr) (t0 t1 w th : R).
Let tw : V3 R := (t0,t1,w).
Hypothesis HK : thr_ok Kt.
Hypothesis Hw : w * w = 1.

Lemma se2_hat_cube_unit : mmul33 Rops (se2_hat tw) (mmul33 Rops (se2_hat tw) (se2_hat tw)) = mscale33 Rops (-1) (se2_hat tw).
Proof. unfold tw. rewrite se2_hat_cube, Hw. reflexivity. Qed.

Lemma trexp2_unit_P4 t i j : e33 (trexp2_unit Rops Kt tw t) i j = P4 (fun k => e33 (mpow33 (se2_hat tw) k) i j) t.
Proof.
  rewrite (cube_P4 _ se2_hat_cube_unit). unfold tw, trexp2_unit. rewrite rodrigues1_with_unit by assumption.
  unfold delta, se2_hat, rodrigues1_th, Vmat2. cbn [cos_ sin_ Rops]. generalize (cos t) (sin t). intros c s. c03_simpl.
  clear HK. destruct i as [|[|i]]; destruct j as [|[|j]]; cbn [e33]; nsatz.
Qed.

Theorem trexp2_unit_is_expm_series i j :
  is_pseries (expm_coeff (se2_hat tw) i j) th (e33 (trexp2_unit Rops Kt tw th) i j).
Proof. rewrite trexp2_unit_P4. exact (period4_is_expm_series33 _ (cube_pow4 _ se2_hat_cube_unit) th i j). Qed.

Theorem trexp2_unit_solves_ode :
  is_derive_M33 (fun t => trexp2_unit Rops Kt tw t) th (mmul33 Rops (se2_hat tw) (trexp2_unit Rops Kt tw th)) /\
  mmul33 Rops (se2_hat tw) (trexp2_unit Rops Kt tw th) = mmul33 Rops (trexp2_unit Rops Kt tw th) (se2_hat tw) /\
  trexp2_unit Rops Kt tw 0 = I33 Rops.
Proof. exact (period4_solves_ode33 _ (trexp2_unit Rops Kt tw) (cube_pow4 _ se2_hat_cube_unit) trexp2_unit_P4 th). Qed.
End SE2series.

(* generators given without theta: the exponential of the matrix W = theta * [u] itself (series at x = 1).
   (theta A)^k = theta^k A^k, so  Sum_k (W^k)_ij / k!  is the same series as  Sum_k theta^k (A^k)_ij / k! . *)
Lemma mpow33_scale (c : R) (A : M33 R) k : mpow33 (mscale33 Rops c A) k = mscale33 Rops (c ^ k) (mpow33 A k).
Proof.
  induction k as [|k IH]; cbn [mpow33 pow]; [symmetry; apply mscale33_one|].
  rewrite IH, mmul33_scale_l, mmul33_scale_r, mscale33_mscale. reflexivity.
Qed.
Lemma mpow44_scale (c : R) (A : M44 R) k : mpow44 (mscale44 c A) k = mscale44 (c ^ k) (mpow44 A k).
Proof.
  induction k as [|k IH]; cbn [mpow44 pow]; [symmetry; apply mscale44_one|].
  rewrite IH, mmul44_scale_l, mmul44_scale_r, mscale44_mscale. reflexivity.
Qed.

Lemma se3_hat_scale (c : R) (S : V6 R) : se3_hat (vscale6r c S) = mscale44 c (se3_hat S).
Proof. destruct_tuples. unfold se3_hat, vscale6r, mscale44. tuple_eq ltac:(ring). Qed.

Theorem rodrigues_is_exp_of_scaled_generator (u : V3 R) (th : R) (i j : nat) : normsq3 Rops u = 1 ->
  is_pseries (expm_coeff (skew3 Rops (vscale3 Rops th u)) i j) 1 (e33 (rodrigues_th Rops u th) i j).
Proof.
  intros Hu. apply is_pseries_R.
  apply is_series_ext with (fun n => expm_coeff (skew3 Rops u) i j n * th ^ n).
  - intro n. unfold expm_coeff. rewrite skew3_scale, mpow33_scale, e33_mscale, pow1. req. unfold Rdiv. ring.
  - exact (proj1 (is_pseries_R _ _ _) (rodrigues_is_expm_series u th Hu i j)).
Qed.

Theorem trexp_unit_is_exp_of_scaled_twist (Kt : thr) (v0 v1 v2 w0 w1 w2 th : R) (i j : nat) :
  thr_ok Kt -> normsq3 Rops (w0,w1,w2) = 1 ->
  is_series (fun k => e44 (mpow44 (se3_hat (vscale6r th (v0,v1,v2,w0,w1,w2))) k) i j / INR (fact k))
            (e44 (trexp_unit Rops Kt (v0,v1,v2,w0,w1,w2) th) i j).
Proof.
  intros HK Hw.
  pose proof (proj1 (is_pseries_R _ _ _) (trexp_unit_is_expm_series Kt v0 v1 v2 w0 w1 w2 th HK Hw i j)) as H.
  apply is_series_ext with (2 := H). intro n. unfold expm_coeff44. rewrite se3_hat_scale, mpow44_scale, e44_mscale. req. unfold Rdiv. ring.
Qed.
