(* The real-number instance of [ops]: the ideal semantics L-real in which theorems are proved. *)
From Coq Require Import Reals ZArith Lra.
From SM Require Import Base.Ops.
Open Scope R_scope.

Definition Rltb (x y : R) : bool := if Rlt_dec x y then true else false.
Definition Rleb (x y : R) : bool := if Rle_dec x y then true else false.
Definition Reqb (x y : R) : bool := if Req_EM_T x y then true else false.

(* atan2 is not in the standard library *)
Definition atan2 (y x : R) : R :=
  if Rlt_dec 0 x then atan (y/x)
  else if Rlt_dec x 0 then (if Rle_dec 0 y then atan (y/x) + PI else atan (y/x) - PI)
  else if Rlt_dec 0 y then PI/2 else if Rlt_dec y 0 then -PI/2 else 0.

Definition Rfloor (x : R) : R := IZR (Int_part x).

(* In L-real the constants are the exact values the code uses: eps = 2^-52; pi_f is taken as PI
   (the gap |math.pi - PI| < 2^-51 is a floating-point matter measured on L-impl). *)
Definition Rops : ops R := {|
  zero := 0; one := 1; add := Rplus; sub := Rminus; mul := Rmult; div := Rdiv; neg := Ropp;
  sqrt_ := sqrt; sin_ := sin; cos_ := cos; tan_ := tan; acos_ := acos; asin_ := asin; atan_ := atan;
  atan2_ := atan2; abs_ := Rabs; floor_ := Rfloor; exp_ := exp; ln_ := ln; ltb := Rltb; leb := Rleb; eqb := Reqb;
  of_Z := IZR; eps := / 4503599627370496; pi_f := PI |}.

Lemma Rltb_true x y : Rltb x y = true <-> x < y.
Proof. unfold Rltb; destruct (Rlt_dec x y); split; intros; try lra; try discriminate; auto. Qed.
Lemma Rltb_false x y : Rltb x y = false <-> ~ x < y.
Proof. unfold Rltb; destruct (Rlt_dec x y); split; intros; try lra; try discriminate; auto; tauto. Qed.
Lemma Rleb_true x y : Rleb x y = true <-> x <= y.
Proof. unfold Rleb; destruct (Rle_dec x y); split; intros; try lra; try discriminate; auto. Qed.
Lemma Rleb_false x y : Rleb x y = false <-> ~ x <= y.
Proof. unfold Rleb; destruct (Rle_dec x y); split; intros; try lra; try discriminate; auto; tauto. Qed.
Lemma Reqb_true x y : Reqb x y = true <-> x = y.
Proof. unfold Reqb; destruct (Req_EM_T x y); split; intros; try lra; try discriminate; auto. Qed.
Lemma Reqb_false x y : Reqb x y = false <-> x <> y.
Proof. unfold Reqb; destruct (Req_EM_T x y); split; intros; try discriminate; tauto. Qed.
(* the same, oriented for [rewrite ... by lra] *)
Lemma Rltb_true_of x y : x < y -> Rltb x y = true.  Proof. apply Rltb_true. Qed.
Lemma Rltb_false_of x y : ~ x < y -> Rltb x y = false.  Proof. apply Rltb_false. Qed.
Lemma Rleb_true_of x y : x <= y -> Rleb x y = true.  Proof. apply Rleb_true. Qed.
Lemma Rleb_false_of x y : ~ x <= y -> Rleb x y = false.  Proof. apply Rleb_false. Qed.
Lemma Reqb_true_of x y : x = y -> Reqb x y = true.  Proof. apply Reqb_true. Qed.
Lemma Reqb_false_of x y : x <> y -> Reqb x y = false.  Proof. apply Reqb_false. Qed.

(* boolean atoms of a path condition -> order facts *)
Ltac pc_facts := repeat match goal with
  | H : _ /\ _ |- _ => destruct H
  | H : True |- _ => clear H
  | H : Rltb _ _ = true |- _ => apply Rltb_true in H
  | H : Rltb _ _ = false |- _ => apply Rltb_false in H
  | H : Rleb _ _ = true |- _ => apply Rleb_true in H
  | H : Rleb _ _ = false |- _ => apply Rleb_false in H
  | H : Rabs _ < _ |- _ => apply Rabs_def2 in H
  | H : context [Rabs (sqrt ?x)] |- _ => rewrite (Rabs_pos_eq (sqrt x) (sqrt_pos x)) in H
  end.

Lemma sqrt_sq_abs x : sqrt (x * x) = Rabs x.
Proof. rewrite <- (sqrt_Rsqr_abs x). reflexivity. Qed.
Lemma sq_eq_nonneg a b : 0 <= a -> 0 <= b -> a * a = b * b -> a = b.
Proof. intros. nra. Qed.
Lemma sqrt_ge_1 x : 1 <= x -> 1 <= sqrt x.
Proof. intros H. rewrite <- sqrt_1 at 1. apply sqrt_le_1_alt. exact H. Qed.
Lemma Rabs_1_of_sq w : w * w = 1 -> Rabs w = 1.
Proof. intros H. rewrite <- sqrt_sq_abs, H. apply sqrt_1. Qed.
Lemma sqrt_pos_sq x : 0 < sqrt x -> sqrt x * sqrt x = x /\ sqrt x <> 0 /\ x <> 0 /\ 0 < x.
Proof.
  intros H. destruct (Rle_or_lt x 0) as [Hx|Hx].
  - rewrite (sqrt_neg_0 x Hx) in H. lra.
  - repeat split; try lra. apply sqrt_sqrt; lra.
Qed.
Lemma sqrt_sqr_mult k e : 0 <= k -> sqrt (k * k * e) = k * sqrt e.
Proof.
  intros Hk. destruct (Rle_dec 0 e) as [He|He].
  - rewrite sqrt_mult_alt by nra. rewrite sqrt_square by exact Hk. reflexivity.
  - rewrite (sqrt_neg_0 e) by lra. rewrite sqrt_neg_0 by nra. ring.
Qed.

(* Give every square root of the goal a name, the name of an earlier one if the two arguments are equal as polynomials.
   For goals from traces, where one length is printed in several shapes. *)
Ltac sqrt_unify :=
  repeat match goal with |- context [sqrt ?x] =>
    first [ match goal with N := sqrt _ |- _ => replace (sqrt x) with N by (unfold N; apply f_equal; ring) end
          | let N := fresh "N" in set (N := sqrt x) ]
  end.

(* Unfold generated / generic definitions down to R operations so that ring/field/nsatz apply. *)
Ltac sm_simpl :=
  cbv beta iota zeta delta [zero one add sub mul div neg sqrt_ sin_ cos_ tan_ acos_ asin_ atan_ atan2_ abs_ floor_ exp_ ln_
       ltb leb eqb of_Z eps pi_f Rops fst snd] in *.
Ltac destruct_tuples :=
  repeat match goal with
         | x : (_ * _)%type |- _ => destruct x
         | x : V2 _ |- _ => destruct x | x : V3 _ |- _ => destruct x
         | x : V4 _ |- _ => destruct x | x : V6 _ |- _ => destruct x
         | x : V8 _ |- _ => destruct x
         | x : M22 _ |- _ => destruct x | x : M33 _ |- _ => destruct x
         | x : M44 _ |- _ => destruct x | x : M66 _ |- _ => destruct x
         | x : M88 _ |- _ => destruct x end.
Ltac tuple_eq tac :=
  repeat match goal with |- (_, _) = (_, _) => apply f_equal2 end; tac.
