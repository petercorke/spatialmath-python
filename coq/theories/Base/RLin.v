(* Real-number linear algebra shared by the property files: ring identities of the fixed-shape
   matrices, the group-membership predicates SO(2)/SO(3)/SE(2)/SE(3) in polynomial form with their
   closure lemmas, what a rotation preserves (dot, cross, skew), and the Hamilton product.
   Closure is derived from the matrix identities (R R' = I, det R = 1), not from the entries. *)
From Coq Require Import Reals ZArith Lra Nsatz.
From SM Require Import Base.Ops Base.Lin Base.RInst.
Open Scope R_scope.

Ltac lin_simpl := autounfold with smlin in *; sm_simpl.
Ltac lin_ring := intros; destruct_tuples; lin_simpl; tuple_eq ltac:(ring).
(* the same over the definitions regenerated from the source (hint database smgen, created by gen/Traces_*.v) *)
Ltac gen_unfold := autounfold with smgen smlin in *; sm_simpl.
Ltac gen_ring := intros; destruct_tuples; gen_unfold; tuple_eq ltac:(ring).

Lemma mmul33_assoc (A B C : M33 R) : mmul33 Rops (mmul33 Rops A B) C = mmul33 Rops A (mmul33 Rops B C).
Proof. lin_ring. Qed.
Lemma mmul44_assoc (A B C : M44 R) : mmul44 Rops (mmul44 Rops A B) C = mmul44 Rops A (mmul44 Rops B C).
Proof. lin_ring. Qed.
Lemma mmul22_assoc (A B C : M22 R) : mmul22 Rops (mmul22 Rops A B) C = mmul22 Rops A (mmul22 Rops B C).
Proof. lin_ring. Qed.
Lemma mmul22_I_l (A : M22 R) : mmul22 Rops (I22 Rops) A = A.  Proof. lin_ring. Qed.
Lemma mmul22_I_r (A : M22 R) : mmul22 Rops A (I22 Rops) = A.  Proof. lin_ring. Qed.
Lemma mmul33_I_l (A : M33 R) : mmul33 Rops (I33 Rops) A = A.  Proof. lin_ring. Qed.
Lemma mmul33_I_r (A : M33 R) : mmul33 Rops A (I33 Rops) = A.  Proof. lin_ring. Qed.
Lemma mmul44_I_l (A : M44 R) : mmul44 Rops (I44 Rops) A = A.  Proof. lin_ring. Qed.
Lemma mmul44_I_r (A : M44 R) : mmul44 Rops A (I44 Rops) = A.  Proof. lin_ring. Qed.
Lemma mtr22_mul (A B : M22 R) : mtr22 (mmul22 Rops A B) = mmul22 Rops (mtr22 B) (mtr22 A).
Proof. lin_ring. Qed.
Lemma mtr33_mul (A B : M33 R) : mtr33 (mmul33 Rops A B) = mmul33 Rops (mtr33 B) (mtr33 A).
Proof. lin_ring. Qed.
Lemma mtr22_invol (A : M22 R) : mtr22 (mtr22 A) = A.  Proof. destruct_tuples. reflexivity. Qed.
Lemma mtr33_invol (A : M33 R) : mtr33 (mtr33 A) = A.  Proof. destruct_tuples. reflexivity. Qed.
Lemma mtr33_I : mtr33 (I33 Rops) = I33 Rops.  Proof. reflexivity. Qed.
Lemma det22_mul (A B : M22 R) : det22 Rops (mmul22 Rops A B) = det22 Rops A * det22 Rops B.
Proof. lin_ring. Qed.
Lemma det33_mul (A B : M33 R) : det33 Rops (mmul33 Rops A B) = det33 Rops A * det33 Rops B.
Proof. lin_ring. Qed.
Lemma det22_tr (A : M22 R) : det22 Rops (mtr22 A) = det22 Rops A.  Proof. lin_ring. Qed.
Lemma det33_tr (A : M33 R) : det33 Rops (mtr33 A) = det33 Rops A.  Proof. lin_ring. Qed.
Lemma skew3_cross (a b : V3 R) : mv33 Rops (skew3 Rops a) b = cross3 Rops a b.
Proof. lin_ring. Qed.
Lemma mv33_mmul (A B : M33 R) (v : V3 R) : mv33 Rops (mmul33 Rops A B) v = mv33 Rops A (mv33 Rops B v).
Proof. lin_ring. Qed.
Lemma mv33_I (v : V3 R) : mv33 Rops (I33 Rops) v = v.  Proof. lin_ring. Qed.
Lemma mv33_vadd3 (A : M33 R) (a b : V3 R) : mv33 Rops A (vadd3 Rops a b) = vadd3 Rops (mv33 Rops A a) (mv33 Rops A b).
Proof. lin_ring. Qed.
Lemma mv33_vsub3 (A : M33 R) (a b : V3 R) : mv33 Rops A (vsub3 Rops a b) = vsub3 Rops (mv33 Rops A a) (mv33 Rops A b).
Proof. lin_ring. Qed.
Lemma dot3_mv33_tr (A : M33 R) (a b : V3 R) :
  dot3 Rops (mv33 Rops A a) (mv33 Rops A b) = dot3 Rops a (mv33 Rops (mmul33 Rops (mtr33 A) A) b).
Proof. lin_ring. Qed.
Lemma mv22_mmul (A B : M22 R) (v : V2 R) : mv22 Rops (mmul22 Rops A B) v = mv22 Rops A (mv22 Rops B v).
Proof. lin_ring. Qed.
Lemma mv22_I (v : V2 R) : mv22 Rops (I22 Rops) v = v.  Proof. lin_ring. Qed.
Lemma mv22_vsub2 (A : M22 R) (a b : V2 R) : mv22 Rops A (vsub2 Rops a b) = vsub2 Rops (mv22 Rops A a) (mv22 Rops A b).
Proof. lin_ring. Qed.
Lemma dot2_mv22_tr (A : M22 R) (a b : V2 R) :
  dot2 Rops (mv22 Rops A a) (mv22 Rops A b) = dot2 Rops a (mv22 Rops (mmul22 Rops (mtr22 A) A) b).
Proof. lin_ring. Qed.
Lemma det22_mv22 (A : M22 R) (a b : V2 R) :
  det22 Rops (mv22 Rops A a, mv22 Rops A b) = det22 Rops A * det22 Rops (a, b).
Proof. lin_ring. Qed.
Lemma mmul33_scale_l (c : R) (A B : M33 R) : mmul33 Rops (mscale33 Rops c A) B = mscale33 Rops c (mmul33 Rops A B).
Proof. lin_ring. Qed.
Lemma mmul33_scale_r (c : R) (A B : M33 R) : mmul33 Rops A (mscale33 Rops c B) = mscale33 Rops c (mmul33 Rops A B).
Proof. lin_ring. Qed.
Lemma mscale33_mscale (c d : R) (A : M33 R) : mscale33 Rops c (mscale33 Rops d A) = mscale33 Rops (c * d) A.
Proof. lin_ring. Qed.
Lemma mscale33_one (A : M33 R) : mscale33 Rops 1 A = A.  Proof. lin_ring. Qed.
Lemma skew3_scale (c : R) (u : V3 R) : skew3 Rops (vscale3 Rops c u) = mscale33 Rops c (skew3 Rops u).
Proof. lin_ring. Qed.
(* K^3 = -|u|^2 K for K = [u]x *)
Lemma skew3_cube (u : V3 R) :
  mmul33 Rops (skew3 Rops u) (mmul33 Rops (skew3 Rops u) (skew3 Rops u)) = mscale33 Rops (- normsq3 Rops u) (skew3 Rops u).
Proof. lin_ring. Qed.
Lemma det33_mv33 (A : M33 R) (a b c : V3 R) :
  det33 Rops (mv33 Rops A a, mv33 Rops A b, mv33 Rops A c) = det33 Rops A * det33 Rops (a, b, c).
Proof. lin_ring. Qed.
Lemma normsq3_nonneg (v : V3 R) : 0 <= normsq3 Rops v.
Proof. destruct_tuples. lin_simpl. nra. Qed.
Lemma normsq3_eq_0 (v : V3 R) : normsq3 Rops v = 0 -> v = (0,0,0).
Proof. destruct_tuples. lin_simpl. intros H. tuple_eq ltac:(nra). Qed.
Lemma normsq3_pos (v : V3 R) : v <> (0,0,0) -> 0 < normsq3 Rops v.
Proof.
  intros H. destruct (Rle_lt_or_eq_dec _ _ (normsq3_nonneg v)) as [|E]; [assumption|].
  exfalso. apply H, normsq3_eq_0. symmetry. exact E.
Qed.
Lemma norm3_nonneg (v : V3 R) : 0 <= norm3 Rops v.
Proof. apply sqrt_pos. Qed.
Lemma norm3_sq (v : V3 R) : norm3 Rops v * norm3 Rops v = normsq3 Rops v.
Proof. apply sqrt_sqrt, normsq3_nonneg. Qed.
Lemma norm3_unit (v : V3 R) : normsq3 Rops v = 1 -> norm3 Rops v = 1.
Proof. intros H. unfold norm3. rewrite H. apply sqrt_1. Qed.
Lemma norm3_0 : norm3 Rops (0,0,0) = 0.
Proof. unfold norm3. replace (normsq3 Rops (0,0,0)) with 0 by (lin_simpl; ring). apply sqrt_0. Qed.
Lemma normsq3_scale k (u : V3 R) : normsq3 Rops (vscale3 Rops k u) = k * k * normsq3 Rops u.
Proof. lin_ring. Qed.
Lemma norm3_scale k (u : V3 R) : 0 <= k -> normsq3 Rops u = 1 -> norm3 Rops (vscale3 Rops k u) = k.
Proof. intros Hk Hu. unfold norm3. rewrite normsq3_scale, Hu, Rmult_1_r. apply sqrt_square, Hk. Qed.
Lemma unit_vscale3 (v : V3 R) n : n * n = normsq3 Rops v -> n <> 0 -> normsq3 Rops (vscale3 Rops (/ n) v) = 1.
Proof. intros H Hn. rewrite normsq3_scale, <- H. field. exact Hn. Qed.
(* Lagrange's identity *)
Lemma normsq3_cross3 (a b : V3 R) :
  normsq3 Rops (cross3 Rops a b) = normsq3 Rops a * normsq3 Rops b - dot3 Rops a b * dot3 Rops a b.
Proof. lin_ring. Qed.

(* The cofactor matrix: (A a) x (A b) = cof A (a x b) for every A. *)
Definition cof33 (A : M33 R) : M33 R :=
  let '((a00,a01,a02),(a10,a11,a12),(a20,a21,a22)) := A in
  ((a11*a22 - a12*a21, a12*a20 - a10*a22, a10*a21 - a11*a20),
   (a02*a21 - a01*a22, a00*a22 - a02*a20, a01*a20 - a00*a21),
   (a01*a12 - a02*a11, a02*a10 - a00*a12, a00*a11 - a01*a10)).
#[export] Hint Unfold cof33 : smlin.
Lemma cross3_mv33 (A : M33 R) a b :
  cross3 Rops (mv33 Rops A a) (mv33 Rops A b) = mv33 Rops (cof33 A) (cross3 Rops a b).
Proof. lin_ring. Qed.
Lemma skew3_mv33 (A : M33 R) w :
  mmul33 Rops (skew3 Rops (mv33 Rops A w)) A = mmul33 Rops (cof33 A) (skew3 Rops w).
Proof. lin_ring. Qed.
(* adjugate: cof A' A = det A I for every A; so a right inverse of a matrix of determinant 1 is cof A' *)
Lemma cof33_adj_l (A : M33 R) : mmul33 Rops (mtr33 (cof33 A)) A = mscale33 Rops (det33 Rops A) (I33 Rops).
Proof. lin_ring. Qed.
Lemma cof_of_right_inverse (A B : M33 R) : mmul33 Rops A B = I33 Rops -> det33 Rops A = 1 -> B = mtr33 (cof33 A).
Proof.
  intros HAB HD. rewrite <- (mmul33_I_l B), <- (mscale33_one (I33 Rops)), <- HD, <- cof33_adj_l, mmul33_assoc, HAB.
  apply mmul33_I_r.
Qed.
(* the same in two dimensions *)
Definition cof22 (A : M22 R) : M22 R := let '((a,b),(c,d)) := A in ((d, -c), (-b, a)).
#[export] Hint Unfold cof22 : smlin.
Lemma cof22_adj_l (A : M22 R) : mmul22 Rops (mtr22 (cof22 A)) A = ((det22 Rops A, 0), (0, det22 Rops A)).
Proof. lin_ring. Qed.
Lemma cof22_of_right_inverse (A B : M22 R) : mmul22 Rops A B = I22 Rops -> det22 Rops A = 1 -> B = mtr22 (cof22 A).
Proof.
  intros HAB HD. assert (E : mmul22 Rops (mtr22 (cof22 A)) A = I22 Rops) by (rewrite cof22_adj_l, HD; reflexivity).
  rewrite <- (mmul22_I_l B), <- E, mmul22_assoc, HAB. apply mmul22_I_r.
Qed.
(* homogeneous transforms multiply blockwise *)
Lemma mmul44_rt (Ra Rb : M33 R) (ta tb : V3 R) :
  mmul44 Rops (rt2tr3 Rops Ra ta) (rt2tr3 Rops Rb tb)
  = rt2tr3 Rops (mmul33 Rops Ra Rb) (vadd3 Rops (mv33 Rops Ra tb) ta).
Proof. lin_ring. Qed.
Lemma mmul33_rt (Ra Rb : M22 R) (ta tb : V2 R) :
  mmul33 Rops (rt2tr2 Rops Ra ta) (rt2tr2 Rops Rb tb)
  = rt2tr2 Rops (mmul22 Rops Ra Rb) (vadd2 Rops (mv22 Rops Ra tb) ta).
Proof. lin_ring. Qed.
Lemma t2r3_rt (Rm : M33 R) (t : V3 R) : t2r3 (rt2tr3 Rops Rm t) = Rm.
Proof. destruct_tuples. reflexivity. Qed.
Lemma transl3_rt (Rm : M33 R) (t : V3 R) : transl3 (rt2tr3 Rops Rm t) = t.
Proof. destruct_tuples. reflexivity. Qed.
Lemma rt2tr3_I : rt2tr3 Rops (I33 Rops) (0,0,0) = I44 Rops.  Proof. reflexivity. Qed.
Lemma rt2tr2_I : rt2tr2 Rops (I22 Rops) (0,0) = I33 Rops.  Proof. reflexivity. Qed.
(* [Rm, t] [S, -S t] = [Rm S, 0] *)
Lemma rt_inverse_r (Rm S : M33 R) (t : V3 R) : mmul33 Rops Rm S = I33 Rops ->
  mmul44 Rops (rt2tr3 Rops Rm t) (rt2tr3 Rops S (vneg3 Rops (mv33 Rops S t))) = I44 Rops.
Proof.
  intros H. rewrite mmul44_rt, H, <- rt2tr3_I. f_equal.
  replace (mv33 Rops Rm (vneg3 Rops (mv33 Rops S t))) with (vneg3 Rops (mv33 Rops (mmul33 Rops Rm S) t)) by lin_ring.
  rewrite H. lin_ring.
Qed.
Lemma rt_inverse_l (Rm S : M33 R) (t : V3 R) : mmul33 Rops S Rm = I33 Rops ->
  mmul44 Rops (rt2tr3 Rops S (vneg3 Rops (mv33 Rops S t))) (rt2tr3 Rops Rm t) = I44 Rops.
Proof. intros H. rewrite mmul44_rt, H, <- rt2tr3_I. f_equal. lin_ring. Qed.
Lemma rt2_inverse_r (Rm S : M22 R) (t : V2 R) : mmul22 Rops Rm S = I22 Rops ->
  mmul33 Rops (rt2tr2 Rops Rm t) (rt2tr2 Rops S (vneg2 Rops (mv22 Rops S t))) = I33 Rops.
Proof.
  intros H. rewrite mmul33_rt, H, <- rt2tr2_I. f_equal.
  replace (mv22 Rops Rm (vneg2 Rops (mv22 Rops S t))) with (vneg2 Rops (mv22 Rops (mmul22 Rops Rm S) t)) by lin_ring.
  rewrite H. lin_ring.
Qed.
Lemma rt2_inverse_l (Rm S : M22 R) (t : V2 R) : mmul22 Rops S Rm = I22 Rops ->
  mmul33 Rops (rt2tr2 Rops S (vneg2 Rops (mv22 Rops S t))) (rt2tr2 Rops Rm t) = I33 Rops.
Proof. intros H. rewrite mmul33_rt, H, <- rt2tr2_I. f_equal. lin_ring. Qed.

(* SO(2) / SO(3) membership (row-orthonormal, det = +1), as polynomial equations *)
Definition SO2 (A : M22 R) : Prop :=
  let '((a,b),(c,d)) := A in a*a + b*b = 1 /\ c*c + d*d = 1 /\ a*c + b*d = 0 /\ a*d - b*c = 1.

Definition SO3 (A : M33 R) : Prop :=
  let '((a00,a01,a02),(a10,a11,a12),(a20,a21,a22)) := A in
  a00*a00 + a01*a01 + a02*a02 = 1 /\ a10*a10 + a11*a11 + a12*a12 = 1 /\ a20*a20 + a21*a21 + a22*a22 = 1 /\
  a00*a10 + a01*a11 + a02*a12 = 0 /\ a00*a20 + a01*a21 + a02*a22 = 0 /\ a10*a20 + a11*a21 + a12*a22 = 0 /\
  a00*(a11*a22 - a12*a21) - a01*(a10*a22 - a12*a20) + a02*(a10*a21 - a11*a20) = 1.

(* the matrix forms *)
Lemma SO3_matrix A : SO3 A <-> mmul33 Rops A (mtr33 A) = I33 Rops /\ det33 Rops A = 1.
Proof.
  destruct_tuples. unfold SO3. lin_simpl. split.
  - intros (H1&H2&H3&H4&H5&H6&H7). split; [|lra]. tuple_eq ltac:(try lra).
  - intros [H D]. injection H; intros. repeat split; lra.
Qed.
Lemma SO2_matrix A : SO2 A <-> mmul22 Rops A (mtr22 A) = I22 Rops /\ det22 Rops A = 1.
Proof.
  destruct_tuples. unfold SO2. lin_simpl. split.
  - intros (H1&H2&H3&H4). split; [|lra]. tuple_eq ltac:(try lra).
  - intros [H D]. injection H; intros. repeat split; lra.
Qed.

(* on SO(3) the cofactor matrix is the matrix itself, and A' is a left inverse too *)
Lemma SO3_cof A : SO3 A -> cof33 A = A.
Proof.
  intros HA. apply SO3_matrix in HA. destruct HA as [HI HD].
  rewrite <- (mtr33_invol A) at 2. rewrite (cof_of_right_inverse A (mtr33 A) HI HD). symmetry. apply mtr33_invol.
Qed.
(* the rows of the cofactor matrix are the cross products of the other two rows *)
Lemma cof33_rows (r0 r1 r2 : V3 R) : cof33 (r0, r1, r2) = (cross3 Rops r1 r2, cross3 Rops r2 r0, cross3 Rops r0 r1).
Proof. lin_ring. Qed.
Lemma SO3_rows_cross (r0 r1 r2 : V3 R) : SO3 (r0, r1, r2) ->
  cross3 Rops r1 r2 = r0 /\ cross3 Rops r2 r0 = r1 /\ cross3 Rops r0 r1 = r2.
Proof. intros H. apply SO3_cof in H. rewrite cof33_rows in H. injection H; auto. Qed.
Lemma SO3_rows_unit (r0 r1 r2 : V3 R) : SO3 (r0, r1, r2) ->
  normsq3 Rops r0 = 1 /\ normsq3 Rops r1 = 1 /\ normsq3 Rops r2 = 1.
Proof. destruct_tuples. lin_simpl. unfold SO3. tauto. Qed.
Lemma SO3_inv_r A : SO3 A -> mmul33 Rops A (mtr33 A) = I33 Rops.
Proof. intros HA. apply SO3_matrix in HA. tauto. Qed.
Lemma SO3_det A : SO3 A -> det33 Rops A = 1.
Proof. intros HA. apply SO3_matrix in HA. tauto. Qed.
Lemma SO3_inv_l A : SO3 A -> mmul33 Rops (mtr33 A) A = I33 Rops.
Proof.
  intros HA. rewrite <- (SO3_cof A HA) at 1. rewrite cof33_adj_l, (SO3_det A HA). apply mscale33_one.
Qed.

(* the same in coordinates: every entry equals its cofactor; columns are orthonormal too *)
Lemma SO3_cofactors a00 a01 a02 a10 a11 a12 a20 a21 a22 :
  SO3 ((a00,a01,a02),(a10,a11,a12),(a20,a21,a22)) ->
  a00 = a11*a22 - a12*a21 /\ a01 = a12*a20 - a10*a22 /\ a02 = a10*a21 - a11*a20 /\
  a10 = a02*a21 - a01*a22 /\ a11 = a00*a22 - a02*a20 /\ a12 = a01*a20 - a00*a21 /\
  a20 = a01*a12 - a02*a11 /\ a21 = a02*a10 - a00*a12 /\ a22 = a00*a11 - a01*a10.
Proof. intros H. apply SO3_cof in H. injection H; intros. repeat split; symmetry; assumption. Qed.

Lemma SO3_columns a00 a01 a02 a10 a11 a12 a20 a21 a22 :
  SO3 ((a00,a01,a02),(a10,a11,a12),(a20,a21,a22)) ->
  a00*a00 + a10*a10 + a20*a20 = 1 /\ a01*a01 + a11*a11 + a21*a21 = 1 /\ a02*a02 + a12*a12 + a22*a22 = 1 /\
  a00*a01 + a10*a11 + a20*a21 = 0 /\ a00*a02 + a10*a12 + a20*a22 = 0 /\ a01*a02 + a11*a12 + a21*a22 = 0.
Proof. intros H. apply SO3_inv_l in H. lin_simpl. injection H; intros. repeat split; lra. Qed.

(* Put every polynomial fact about a rotation matrix into the context (rows, det, cofactors, columns).
   Usage: so3_facts H  where  H : SO3 ((a00,..),(..),(..))  after destruct_tuples. *)
Ltac so3_facts H :=
  let C := fresh "Hcof" in let K := fresh "Hcol" in
  pose proof (SO3_cofactors _ _ _ _ _ _ _ _ _ H) as C; pose proof (SO3_columns _ _ _ _ _ _ _ _ _ H) as K;
  unfold SO3 in H; decompose [and] H; decompose [and] C; decompose [and] K; clear H C K.

Lemma SO3_I : SO3 (I33 Rops).
Proof. lin_simpl. unfold SO3. repeat split; ring. Qed.
Lemma SO3_mul A B : SO3 A -> SO3 B -> SO3 (mmul33 Rops A B).
Proof.
  intros HA HB. apply SO3_matrix. split.
  - rewrite mtr33_mul, mmul33_assoc, <- (mmul33_assoc B), (SO3_inv_r B HB), mmul33_I_l. apply SO3_inv_r, HA.
  - rewrite det33_mul, (SO3_det A HA), (SO3_det B HB). ring.
Qed.
Lemma SO3_mul3 A B C : SO3 A -> SO3 B -> SO3 C -> SO3 (mmul33 Rops A (mmul33 Rops B C)).
Proof. intros HA HB HC. apply SO3_mul; [ exact HA | apply SO3_mul; [ exact HB | exact HC ] ]. Qed.
Lemma SO3_tr A : SO3 A -> SO3 (mtr33 A).
Proof.
  intros HA. apply SO3_matrix. rewrite mtr33_invol, det33_tr. split; [apply SO3_inv_l, HA | apply SO3_det, HA].
Qed.

Lemma SO2_cof A : SO2 A -> cof22 A = A.
Proof.
  intros HA. apply SO2_matrix in HA. destruct HA as [HI HD].
  rewrite <- (mtr22_invol A) at 2. rewrite (cof22_of_right_inverse A (mtr22 A) HI HD). symmetry. apply mtr22_invol.
Qed.
Lemma SO2_inv_r A : SO2 A -> mmul22 Rops A (mtr22 A) = I22 Rops.
Proof. intros HA. apply SO2_matrix in HA. tauto. Qed.
Lemma SO2_det A : SO2 A -> det22 Rops A = 1.
Proof. intros HA. apply SO2_matrix in HA. tauto. Qed.
Lemma SO2_inv_l A : SO2 A -> mmul22 Rops (mtr22 A) A = I22 Rops.
Proof. intros HA. rewrite <- (SO2_cof A HA) at 1. rewrite cof22_adj_l, (SO2_det A HA). reflexivity. Qed.
Lemma SO2_columns a b c d : SO2 ((a,b),(c,d)) -> a = d /\ b = - c /\ a*a + c*c = 1.
Proof.
  intros H. pose proof (SO2_cof _ H) as E. injection E as Ed Ec Eb Ea. destruct H as (Hr & _).
  repeat split; [ lra | lra | ]. replace c with (- b) by lra. rewrite <- Hr. ring.
Qed.
Lemma SO2_I : SO2 (I22 Rops).
Proof. lin_simpl. unfold SO2. repeat split; ring. Qed.
Lemma SO2_mul A B : SO2 A -> SO2 B -> SO2 (mmul22 Rops A B).
Proof.
  intros HA HB. apply SO2_matrix. split.
  - rewrite mtr22_mul, mmul22_assoc, <- (mmul22_assoc B), (SO2_inv_r B HB), mmul22_I_l. apply SO2_inv_r, HA.
  - rewrite det22_mul, (SO2_det A HA), (SO2_det B HB). ring.
Qed.
Lemma SO2_tr A : SO2 A -> SO2 (mtr22 A).
Proof.
  intros HA. apply SO2_matrix. rewrite mtr22_invol, det22_tr. split; [apply SO2_inv_l, HA | apply SO2_det, HA].
Qed.

Lemma SO3_dot A a b : SO3 A -> dot3 Rops (mv33 Rops A a) (mv33 Rops A b) = dot3 Rops a b.
Proof. intros HA. rewrite dot3_mv33_tr, (SO3_inv_l A HA), mv33_I. reflexivity. Qed.
Lemma SO2_dot A a b : SO2 A -> dot2 Rops (mv22 Rops A a) (mv22 Rops A b) = dot2 Rops a b.
Proof. intros HA. rewrite dot2_mv22_tr, (SO2_inv_l A HA), mv22_I. reflexivity. Qed.
Lemma SO3_cross A a b : SO3 A ->
  cross3 Rops (mv33 Rops A a) (mv33 Rops A b) = mv33 Rops A (cross3 Rops a b).
Proof. intros HA. rewrite cross3_mv33, (SO3_cof A HA). reflexivity. Qed.
Lemma SO3_skew A w : SO3 A ->
  mmul33 Rops A (skew3 Rops w) = mmul33 Rops (skew3 Rops (mv33 Rops A w)) A.
Proof. intros HA. rewrite skew3_mv33, (SO3_cof A HA). reflexivity. Qed.

(* rows x, z x x, z of a right-handed orthonormal frame: the middle row is a unit vector by Lagrange's identity,
   and the determinant is its squared length *)
Lemma SO3_frame_rows (x z : V3 R) : normsq3 Rops x = 1 -> normsq3 Rops z = 1 -> dot3 Rops x z = 0 ->
  SO3 (x, cross3 Rops z x, z).
Proof.
  intros Hx Hz Hxz.
  assert (Hy : normsq3 Rops (cross3 Rops z x) = 1).
  { rewrite normsq3_cross3, Hx, Hz. replace (dot3 Rops z x) with (dot3 Rops x z) by lin_ring. rewrite Hxz. ring. }
  destruct_tuples. lin_simpl. unfold SO3.
  repeat split; [ exact Hx | exact Hy | exact Hz | ring | exact Hxz | ring | rewrite <- Hy; ring ].
Qed.

(* SE(3) / SE(2): rotation block in SO(n), last row exactly (0,..,0,1) *)
Definition SE3 (A : M44 R) : Prop := SO3 (t2r3 A) /\ lastrow4 A = (0,0,0,1).
Definition SE2 (A : M33 R) : Prop := SO2 (t2r2 A) /\ lastrow3 A = (0,0,1).

Lemma SE3_rt (Rm : M33 R) (t : V3 R) : SO3 Rm -> SE3 (rt2tr3 Rops Rm t).
Proof. intros H. destruct_tuples. unfold SE3. lin_simpl. split; [exact H|reflexivity]. Qed.
Lemma SE3_decompose A : SE3 A -> A = rt2tr3 Rops (t2r3 A) (transl3 A).
Proof. intros [_ H]. destruct_tuples. lin_simpl. injection H; intros; subst. reflexivity. Qed.
Lemma SE3_I : SE3 (I44 Rops).
Proof. rewrite <- rt2tr3_I. apply SE3_rt, SO3_I. Qed.
Lemma SE3_mul A B : SE3 A -> SE3 B -> SE3 (mmul44 Rops A B).
Proof.
  intros HA HB. rewrite (SE3_decompose A HA), (SE3_decompose B HB), mmul44_rt.
  apply SE3_rt, SO3_mul; [apply HA | apply HB].
Qed.
(* the structured inverse [R' , -R' t] *)
Definition trinv_ref (A : M44 R) : M44 R :=
  rt2tr3 Rops (mtr33 (t2r3 A)) (vneg3 Rops (mv33 Rops (mtr33 (t2r3 A)) (transl3 A))).
Lemma SE3_inv A : SE3 A -> SE3 (trinv_ref A).
Proof. intros [HA _]. unfold trinv_ref. apply SE3_rt. apply SO3_tr. exact HA. Qed.
Lemma SE3_inv_r A : SE3 A -> mmul44 Rops A (trinv_ref A) = I44 Rops.
Proof.
  intros HA. rewrite (SE3_decompose A HA) at 1. apply rt_inverse_r, SO3_inv_r, HA.
Qed.
Lemma SE3_inv_l A : SE3 A -> mmul44 Rops (trinv_ref A) A = I44 Rops.
Proof.
  intros HA. rewrite (SE3_decompose A HA) at 2. apply rt_inverse_l, SO3_inv_l, HA.
Qed.

Lemma SE2_rt (Rm : M22 R) (t : V2 R) : SO2 Rm -> SE2 (rt2tr2 Rops Rm t).
Proof. intros H. destruct_tuples. unfold SE2. lin_simpl. split; [exact H|reflexivity]. Qed.
Lemma SE2_decompose A : SE2 A -> A = rt2tr2 Rops (t2r2 A) (transl2 A).
Proof. intros [_ H]. destruct_tuples. lin_simpl. injection H; intros; subst. reflexivity. Qed.
Lemma SE2_I : SE2 (I33 Rops).
Proof. rewrite <- rt2tr2_I. apply SE2_rt, SO2_I. Qed.
Lemma SE2_mul A B : SE2 A -> SE2 B -> SE2 (mmul33 Rops A B).
Proof.
  intros HA HB. rewrite (SE2_decompose A HA), (SE2_decompose B HB), mmul33_rt.
  apply SE2_rt, SO2_mul; [apply HA | apply HB].
Qed.
Definition trinv2_ref (A : M33 R) : M33 R :=
  rt2tr2 Rops (mtr22 (t2r2 A)) (vneg2 Rops (mv22 Rops (mtr22 (t2r2 A)) (transl2 A))).
Lemma SE2_inv A : SE2 A -> SE2 (trinv2_ref A).
Proof. intros [HA _]. unfold trinv2_ref. apply SE2_rt. apply SO2_tr. exact HA. Qed.
Lemma SE2_inv_r A : SE2 A -> mmul33 Rops A (trinv2_ref A) = I33 Rops.
Proof.
  intros HA. rewrite (SE2_decompose A HA) at 1. apply rt2_inverse_r, SO2_inv_r, HA.
Qed.
Lemma SE2_inv_l A : SE2 A -> mmul33 Rops (trinv2_ref A) A = I33 Rops.
Proof.
  intros HA. rewrite (SE2_decompose A HA) at 2. apply rt2_inverse_l, SO2_inv_l, HA.
Qed.

(* rotations from (cos, sin) pairs are in the group *)
Lemma SO3_rotx c s : c*c + s*s = 1 -> SO3 (rotx_cs Rops c s).
Proof. intros. lin_simpl. unfold SO3. repeat split; nsatz. Qed.
Lemma SO3_roty c s : c*c + s*s = 1 -> SO3 (roty_cs Rops c s).
Proof. intros. lin_simpl. unfold SO3. repeat split; nsatz. Qed.
Lemma SO3_rotz c s : c*c + s*s = 1 -> SO3 (rotz_cs Rops c s).
Proof. intros. lin_simpl. unfold SO3. repeat split; nsatz. Qed.
Lemma SO2_rot2 c s : c*c + s*s = 1 -> SO2 (rot2_cs Rops c s).
Proof. intros. lin_simpl. unfold SO2. repeat split; nsatz. Qed.
Lemma cs_unit th : cos th * cos th + sin th * sin th = 1.
Proof. pose proof (sin2_cos2 th) as H. unfold Rsqr in H. lra. Qed.

Lemma qmul_assoc (p q r : V4 R) : qmul Rops (qmul Rops p q) r = qmul Rops p (qmul Rops q r).
Proof. lin_ring. Qed.
Lemma qmul_one_l (q : V4 R) : qmul Rops (qone Rops) q = q.  Proof. lin_ring. Qed.
Lemma qmul_one_r (q : V4 R) : qmul Rops q (qone Rops) = q.  Proof. lin_ring. Qed.
Lemma qconj_mul (p q : V4 R) : qconj Rops (qmul Rops p q) = qmul Rops (qconj Rops q) (qconj Rops p).
Proof. lin_ring. Qed.
Lemma qmul_norm (p q : V4 R) : qnormsq Rops (qmul Rops p q) = qnormsq Rops p * qnormsq Rops q.
Proof. lin_ring. Qed.
Lemma qconj_norm (q : V4 R) : qnormsq Rops (qconj Rops q) = qnormsq Rops q.
Proof. lin_ring. Qed.
Lemma qmul_conj_r (q : V4 R) : qmul Rops q (qconj Rops q) = (qnormsq Rops q, 0, 0, 0).
Proof. lin_ring. Qed.
Lemma qmul_conj_l (q : V4 R) : qmul Rops (qconj Rops q) q = (qnormsq Rops q, 0, 0, 0).
Proof. lin_ring. Qed.
(* the unit quaternions form a group with the conjugate as inverse *)
Lemma qmul_unit (p q : V4 R) : qnormsq Rops p = 1 -> qnormsq Rops q = 1 -> qnormsq Rops (qmul Rops p q) = 1.
Proof. intros Hp Hq. rewrite qmul_norm, Hp, Hq. ring. Qed.
Lemma qconj_unit (q : V4 R) : qnormsq Rops q = 1 -> qnormsq Rops (qconj Rops q) = 1.
Proof. intros H. rewrite qconj_norm. exact H. Qed.
Lemma qone_unit : qnormsq Rops (qone Rops) = 1.
Proof. lin_simpl. ring. Qed.
Lemma qmul_conj_unit_r (q : V4 R) : qnormsq Rops q = 1 -> qmul Rops q (qconj Rops q) = qone Rops.
Proof. intros H. rewrite qmul_conj_r, H. reflexivity. Qed.
Lemma qmul_conj_unit_l (q : V4 R) : qnormsq Rops q = 1 -> qmul Rops (qconj Rops q) q = qone Rops.
Proof. intros H. rewrite qmul_conj_l, H. reflexivity. Qed.
(* the quaternion (c, s u) maps to I + 2 s c [u]x + 2 s^2 [u]x^2 *)
Lemma q2r_axis_cs (c s : R) (u : V3 R) :
  q2r_ref Rops (c, s * fst (fst u), s * snd (fst u), s * snd u)
  = madd33 Rops (I33 Rops) (madd33 Rops (mscale33 Rops (2*s*c) (skew3 Rops u))
                                        (mscale33 Rops (2*s*s) (mmul33 Rops (skew3 Rops u) (skew3 Rops u)))).
Proof. destruct_tuples. cbn [fst snd]. lin_ring. Qed.
Lemma SO3_q2r (q : V4 R) : qnormsq Rops q = 1 -> SO3 (q2r_ref Rops q).
Proof. intros H. destruct_tuples. lin_simpl. unfold SO3. repeat split; nsatz. Qed.
Lemma q2r_hom (p q : V4 R) : qnormsq Rops p = 1 -> qnormsq Rops q = 1 ->
  q2r_ref Rops (qmul Rops p q) = mmul33 Rops (q2r_ref Rops p) (q2r_ref Rops q).
Proof. intros Hp Hq. destruct_tuples. lin_simpl. tuple_eq ltac:(nsatz). Qed.
